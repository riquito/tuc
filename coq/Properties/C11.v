(** C11 — -z is newline mode with the roles of LF and NUL exchanged. *)
From TucModel Require Import Base.Bytes Model.Bounds Model.Scan Model.Utf8 Model.Opt Model.CutStr
     Model.FastLane Model.CutLines Model.Stream Proofs.C06 Proofs.C11 Proofs.C11Run Proofs.C11Utf8 Proofs.C11Stream Proofs.C11Lines.
From TucModel Require Proofs.C02.

Theorem C11_records :
  forall (eol : byte) (l : bytes), records (swap eol) (map swap l) = map (map swap) (records eol l).
Proof. exact (records_rename swap swap_injective). Qed.

(** nothing in record splitting, field location, trimming or -p looks at the value of a byte,
    only at which bytes are equal: they commute with every injective renaming of the bytes
    (exchanging LF and NUL is one; CR is like any other byte) *)
Theorem C11_record_splitting_is_value_blind :
  forall f : byte -> byte, (forall a b, f a = f b -> a = b) ->
  forall (eol : byte) (l : bytes), records (f eol) (map f l) = map (map f) (records eol l).
Proof. exact records_rename. Qed.

Theorem C11_field_locations_are_value_blind :
  forall f : byte -> byte, (forall a b, f a = f b -> a = b) ->
  forall d line : bytes,
    fields_of_matches (lit_matches (map f d) (map f line)) (map f line)
    = fields_of_matches (lit_matches d line) line.
Proof. intros f Hf d line. rewrite (lit_matches_rename f Hf). apply fields_of_matches_rename. Qed.

Theorem C11_greedy_field_locations_are_value_blind :
  forall f : byte -> byte, (forall a b, f a = f b -> a = b) ->
  forall d line : bytes,
    fields_of_matches (merge_adjacent (lit_matches (map f d) (map f line))) (map f line)
    = fields_of_matches (merge_adjacent (lit_matches d line)) line.
Proof. intros f Hf d line. rewrite (lit_matches_rename f Hf). apply fields_of_matches_rename. Qed.

Theorem C11_trim_is_value_blind :
  forall f : byte -> byte, (forall a b, f a = f b -> a = b) ->
  forall (k : trimk) (d l : bytes), trim_lit k (map f d) (map f l) = map f (trim_lit k d l).
Proof. exact trim_rename. Qed.

Theorem C11_compress_is_value_blind :
  forall f : byte -> byte, (forall a b, f a = f b -> a = b) ->
  forall d line : bytes, compress_delimiter (map f d) (map f line) = map f (compress_delimiter d line).
Proof. exact compress_rename. Qed.

Theorem C11_swap_is_a_renaming : forall a b : byte, swap a = swap b -> a = b.
Proof. exact swap_injective. Qed.

(** whole runs of the general path (multi-byte delimiters, -g -p -t -s -m -j -r, format text,
    fallbacks; no regex, no --json): with option texts that hold neither LF nor NUL, running
    with the other terminator on the input with LF and NUL exchanged gives the exchanged
    output and the same status *)
Theorem C11_general_path :
  forall (o : opt) (input : bytes),
    o_regex o = None -> o_json o = false -> neutral_texts o ->
    read_and_cut_str (with_eol (swap (o_eol o)) o) (map swap input)
    = option_map (rename_outcome swap) (read_and_cut_str o input).
Proof.
  intros o input Hx Hj Hn. rewrite <- (rename_neutral_opt o Hn).
  apply general_path_rename; [apply swap_injective | apply rx_blind_none, Hx | exact Hj].
Qed.

(** ... and under every injective renaming applied to the input and to every option text (the
    terminator, the delimiter, the replacement, fallbacks, format text) *)
Theorem C11_general_path_is_value_blind :
  forall f : byte -> byte, (forall a b, f a = f b -> a = b) ->
  forall (o : opt) (input : bytes), o_regex o = None -> o_json o = false ->
    read_and_cut_str (rename_opt f o) (map f input)
    = option_map (rename_outcome f) (read_and_cut_str o input).
Proof. intros f Hf o input Hx Hj. apply general_path_rename; [exact Hf | apply rx_blind_none, Hx | exact Hj]. Qed.

Theorem C11_fast_lane :
  forall (o : opt) (l : list bof) (input : bytes),
    fast_eligible o = true -> from_vec l = Some (o_bounds o) -> Forall item_nz l -> neutral_texts o ->
    read_and_cut_fast (with_eol (swap (o_eol o)) o) (map swap input)
    = option_map (rename_outcome swap) (read_and_cut_fast o input).
Proof.
  intros o l input He Hf Hnz Hn.
  rewrite (C02.C02_run (with_eol (swap (o_eol o)) o) l _ He Hf Hnz), (C02.C02_run o l _ He Hf Hnz).
  destruct (C02.fast_eligible_plain o He) as [d [[_ [_ [Hj [_ Hx]]]] _]].
  exact (C11_general_path o input Hx Hj Hn).
Qed.

(** -M: accepted with the other terminator exactly when it was, and then the exchanged output *)
Theorem C11_fixed_memory :
  forall (o : opt) (input : bytes),
    neutral_texts o ->
    match stream_opt o, stream_opt (with_eol (swap (o_eol o)) o) with
    | Some so, Some so' => run_stream_whole so' (map swap input) = rename_outcome swap (run_stream_whole so input)
    | None, None => True
    | _, _ => False
    end.
Proof.
  intros o input Hn. rewrite <- (rename_neutral_opt o Hn), (stream_opt_rename swap o).
  destruct (stream_opt o) as [so|]; cbn [option_map]; [|exact I].
  apply stream_rename, swap_injective.
Qed.

(** -l, both algorithms (in line mode the delimiter is the terminator itself) *)
Theorem C11_line_mode :
  forall (o : opt) (input : bytes),
    o_regex o = None -> o_json o = false -> neutral_line_texts o ->
    read_and_cut_lines (with_line_eol (swap (o_eol o)) o) (map swap input)
    = option_map (rename_outcome swap) (read_and_cut_lines o input).
Proof.
  intros o input Hx Hj Hn. rewrite <- (rename_neutral_line_opt o Hn).
  apply lines_rename; [apply swap_injective | apply utf8_valid_swap | assumption | assumption].
Qed.

Theorem C11_character_mode :
  forall (o : opt) (input : bytes),
    o_regex o = Some RxChars -> o_btype o = BChars -> o_json o = false -> neutral_texts o ->
    read_and_cut_str (with_eol (swap (o_eol o)) o) (map swap input)
    = option_map (rename_outcome swap) (read_and_cut_str o input).
Proof.
  intros o input Hx _ Hj Hn. rewrite <- (rename_neutral_opt o Hn).
  apply general_path_rename; [apply swap_injective | | exact Hj].
  unfold rx_blind. rewrite Hx. split; exact char_matches_swap.
Qed.

(** what -l looks at besides equality of bytes *)
Theorem C11_exchange_keeps_utf8 :
  forall l : bytes, utf8_valid (map swap l) = utf8_valid l.
Proof. exact utf8_valid_swap. Qed.

Print Assumptions C11_records.
Print Assumptions C11_record_splitting_is_value_blind.
Print Assumptions C11_field_locations_are_value_blind.
Print Assumptions C11_greedy_field_locations_are_value_blind.
Print Assumptions C11_trim_is_value_blind.
Print Assumptions C11_compress_is_value_blind.
Print Assumptions C11_swap_is_a_renaming.
Print Assumptions C11_general_path.
Print Assumptions C11_general_path_is_value_blind.
Print Assumptions C11_fast_lane.
Print Assumptions C11_fixed_memory.
Print Assumptions C11_line_mode.
Print Assumptions C11_character_mode.
Print Assumptions C11_exchange_keeps_utf8.
