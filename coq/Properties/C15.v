(** C15 — --complement prints exactly what each bound leaves out: every bound is replaced, in
    place, by the parts before it followed by the parts after it, and the record is then cut as
    if that list had been requested; when nothing is left out the record fails. *)
From TucModel Require Import Base.Bytes Model.Bounds Model.Scan Model.Opt
     Proofs.BoundsFacts Proofs.C15 Proofs.C01More Proofs.C09More Proofs.C15More.

(** a resolved bound [s,e) on n parts is replaced, in place, by bounds that resolve to the
    non-empty ones among [0,s) and [e,n), in that order, without fallbacks *)
Theorem C15_complement_of_a_bound :
  forall (b : ubound) (n s e : nat),
    bound_nz b -> try_into_range b n = Some (s, e) ->
    exists cs, complement_bound b n = Some cs
               /\ map (fun c => try_into_range c n) cs = map Some (complement_spec n s e)
               /\ Forall (fun c => bfb c = None /\ blast c = false) cs.
Proof. exact C15_core. Qed.

Theorem C15_selected_parts :
  forall (A : Type) (parts : list A) (s e : nat), (s < e <= length parts)%nat ->
    concat (map (fun r => slice parts (fst r) (snd r)) (complement_spec (length parts) s e))
    = firstn s parts ++ skipn e parts.
Proof. exact @C15_selects. Qed.

(** if the bounds leave nothing out the complement is rejected *)
Theorem C15_nothing_left_out_fails :
  forall (l : list bof) (n : nat),
    Forall (fun x => match x with Bound b => try_into_range b n = Some (0%nat, n) | Filler _ => True end) l ->
    complement_list l n = None.
Proof. intros l n H. unfold complement_list. rewrite (complement_items_all l n H). reflexivity. Qed.

(** a whole record: -m is the same invocation without -m on the complemented list, so order,
    -j, -r, -s and the EOL are treated by the very same code; and when the bounds leave nothing
    out the record fails *)
Theorem C15_complement_is_the_explicit_request :
  forall (o : opt) (line : bytes) (fields : list mtch) (u : ublist),
    o_complement o = true ->
    complement_list (items (o_bounds o)) (length fields) = Some u ->
    finish_record o line fields = finish_record (with_bounds u (without_complement o)) line fields.
Proof. exact complement_is_the_explicit_request. Qed.

Theorem C15_nothing_left_fails_the_record :
  forall (o : opt) (line : bytes) (fields : list mtch),
    o_complement o = true ->
    complement_list (items (o_bounds o)) (length fields) = None ->
    (o_only_delimited o && Nat.eqb (length fields) 1) = false ->
    finish_record o line fields = RErr.
Proof. intros o line fields Hc Hu Hs. unfold finish_record. rewrite Hs, Hc, Hu. reflexivity. Qed.

Print Assumptions C15_complement_of_a_bound.
Print Assumptions C15_selected_parts.
Print Assumptions C15_nothing_left_out_fails.
Print Assumptions C15_complement_is_the_explicit_request.
Print Assumptions C15_nothing_left_fails_the_record.
