(** C16 — a regex delimiter splits at its matches and is replaced literally.
    The theorems are about the modelled regex family (literal characters, ASCII classes,
    concatenation, alternation, '+', groups; leftmost-first), whose engine is proved sound
    and complete for the declarative language of the family (Spec/RegexLang.v); that the
    regex crate computes the same matches on this family is what the correspondence run checks. *)
From TucModel Require Import Base.Bytes Base.ListX Model.Bounds Model.Scan Model.Regex Model.Opt Model.CutStr
     Spec.RegexLang Spec.Fields Proofs.C06 Proofs.ScanSplit Proofs.C12 Proofs.C16 Proofs.C16Sem Proofs.C16Replace.

(** the engine against the language of the family: what it reports at the head of a text is
    a word of the language, and it reports nothing only when no prefix of the text is one *)
Theorem C16_engine_is_sound :
  forall (r : re) (l : bytes) (n : nat), match_len r l = Some n -> n <= length l /\ re_lang r (firstn n l).
Proof. exact match_len_some. Qed.

Theorem C16_engine_is_complete :
  forall (r : re) (l : bytes), match_len r l = None -> forall u s', l = u ++ s' -> ~ re_lang r u.
Proof. exact match_len_none. Qed.

(** find_iter: the matches are the successive leftmost non-overlapping ones - each reported
    match is a word of the language, it starts at the first position after the previous
    match at which any word of the language starts ([scan_ok]: positions passed over carry
    the proof that no word starts there), and scanning resumes at its end *)
Theorem C16_matches_are_the_leftmost_nonoverlapping_ones :
  forall (r : re) (l : bytes), scan_ok r 0 0 l (re_find_iter r l).
Proof. intros r l. apply re_find_aux_spec. Qed.

(** matches are sorted, non-overlapping, non-empty and inside the record *)
Theorem C16_matches_are_well_formed :
  forall (r : re) (line : bytes),
    wf_ms 0 (re_find_iter r line) (length line) /\ Forall (fun m => fst m < snd m) (re_find_iter r line).
Proof. exact re_matches_wf. Qed.

(** the fields are exactly the gaps between successive matches: gaps and matches, woven
    together in order, are the record - no byte lost, altered or reordered *)
Theorem C16_fields_and_matches_tile_the_record :
  forall (r : re) (line : bytes), weave line 0 (re_find_iter r line) (length line) = line.
Proof.
  intros r line. rewrite (weave_is_the_line line _ 0 (length line) (proj1 (re_matches_wf r line))).
  apply slice_full.
Qed.

(** -g: the same for maximal runs of adjacent matches (the matches of (RE)+) *)
Theorem C16_greedy_fields_tile_the_record :
  forall (r : re) (line : bytes), weave line 0 (re_find_iter (RPlus r) line) (length line) = line.
Proof. intros r. exact (C16_fields_and_matches_tile_the_record (RPlus r)). Qed.

(** for any well-formed match list (whatever engine produced it) *)
Theorem C16_tiling_for_any_matcher :
  forall (line : bytes) (ms : list mtch) (start len : nat),
    wf_ms start ms len -> weave line start ms len = slice line start len.
Proof. exact weave_is_the_line. Qed.

(** and the output loop cannot index out of range on them *)
Theorem C16_no_index_out_of_range :
  forall (o : opt) (line : bytes) (ms : list mtch) (bs : list bof),
    line <> [] -> wf_ms 0 ms (length line) -> Forall item_nz bs ->
    out_loop o line (fields_of_matches ms line) bs <> RPanic.
Proof. exact out_loop_no_panic. Qed.

(** -r R prints the literal text R - never an expansion of it - wherever a delimiter is replaced:
    for the matches of any engine, replacing them is joining the gaps between them with R *)
Theorem C16_replacement_is_the_literal_text :
  forall (line rep : bytes) (ms : list mtch),
    replace_matches line ms rep = intercalate rep (pieces line (gaps_from 0 ms (length line))).
Proof. exact replace_matches_is_intercalate. Qed.

(** ... so a selected text is printed as its fields joined by R ... *)
Theorem C16_selected_text_is_rejoined_with_R :
  forall (o : opt) (x : rx) (nd text : bytes) (ms : list mtch),
    o_btype o <> BChars -> o_replace o = Some nd -> o_regex o = Some x -> o_compress o = false ->
    rx_normal x text = Some ms ->
    maybe_replace o text = Some (intercalate nd (pieces text (gaps_from 0 ms (length text)))).
Proof. exact maybe_replace_regex_is_intercalate. Qed.

(** ... and after -p, which has already rewritten every run of matches to R, it is printed as it is
    (an R that itself matches RE is not expanded a second time) *)
Theorem C16_after_compress_the_text_is_printed_as_it_is :
  forall (o : opt) (x : rx) (nd text : bytes),
    o_replace o = Some nd -> o_regex o = Some x -> o_compress o = true -> maybe_replace o text = Some text.
Proof. exact maybe_replace_after_compress. Qed.

Print Assumptions C16_engine_is_sound.
Print Assumptions C16_engine_is_complete.
Print Assumptions C16_matches_are_the_leftmost_nonoverlapping_ones.
Print Assumptions C16_matches_are_well_formed.
Print Assumptions C16_fields_and_matches_tile_the_record.
Print Assumptions C16_greedy_fields_tile_the_record.
Print Assumptions C16_tiling_for_any_matcher.
Print Assumptions C16_no_index_out_of_range.
Print Assumptions C16_replacement_is_the_literal_text.
Print Assumptions C16_selected_text_is_rejoined_with_R.
Print Assumptions C16_after_compress_the_text_is_printed_as_it_is.

(** non-vacuity: ',|;;' on  a,;;b  : matches at 1..2 and 2..4 *)
Example C16_alternation_example :
  re_find_iter (RAlt (RByte 44) (RCat (RByte 59) (RByte 59))) [97;44;59;59;98]%N = [(1, 2); (2, 4)].
Proof. reflexivity. Qed.
