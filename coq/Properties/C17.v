(** C17 — memory stays within the documented bounds.
    The theorems are about an accounting model of what each path keeps resident (Model/Space.v);
    the allocator, Vec growth and page accounting are runtime facts, measured on the real
    binary (peak RSS while one dimension of the input grows), not proved.  That a field piece
    never outlives its chunk and that output is not retained is how [scan_chunk] is written -
    the piece starts empty, [out] is only appended to - not a theorem. *)
From TucModel Require Import Base.Bytes Model.Bounds Model.Opt
     Model.Stream Model.Space Proofs.C04 Proofs.C17.

Theorem C17_fixed_memory_state_only_shrinks :
  forall (so : sopt) (c : bytes) (its : list bof) (curr : Z) (trunc : bool) (p out out' : bytes)
         (its' : list bof) (curr' : Z) (trunc' : bool),
    scan_chunk so its curr trunc p c out = ChunkEnd out' its' curr' trunc' ->
    items_size its' <= items_size its.
Proof.
  intros so c its curr trunc p out out' its' curr' trunc' H.
  destruct (scan_chunk_suffix _ _ _ _ _ _ _ _ _ _ _ H) as [pre ->]. apply items_size_suffix.
Qed.

(** what it keeps resident is bounded by the option texts and the chunk, whatever the input *)
Theorem C17_fixed_memory_account_is_independent_of_the_input :
  forall (so : sopt) (c : bytes) (its : list bof) (curr : Z) (trunc : bool) (out out' : bytes)
         (its' : list bof) (curr' : Z) (trunc' : bool) (chunk' : bytes),
    scan_chunk so its curr trunc [] c out = ChunkEnd out' its' curr' trunc' ->
    items_size its <= items_size (s_items so) ->
    stream_resident its' chunk' <= items_size (s_items so) + 3 + length chunk'.
Proof.
  intros so c its curr trunc out out' its' curr' trunc' chunk' H Hi.
  apply C17_fixed_memory_state_only_shrinks in H. unfold stream_resident. lia.
Qed.

(** the record paths: the record, two words per field, a compressed copy under -p *)
Theorem C17_record_paths_account_is_linear_in_the_record :
  forall (o : opt) (record : bytes) (nf : nat),
    nf <= length record + 1 ->
    record_resident o record nf <= 4 * length record + 2 + items_size (items (o_bounds o)).
Proof. intros o record nf H. unfold record_resident. destruct (o_compress o); lia. Qed.

Print Assumptions C17_fixed_memory_state_only_shrinks.
Print Assumptions C17_fixed_memory_account_is_independent_of_the_input.
Print Assumptions C17_record_paths_account_is_linear_in_the_record.
