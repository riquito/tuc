(** C02 — the single-byte-delimiter fast path is indistinguishable from the general path: the same
    output and status on a whole input and on each record; its early stop at the last interesting
    field never changes what a bound resolves to. *)
From TucModel Require Import Base.Bytes Model.Bounds Model.BoundsParse Model.Opt
     Model.CutStr Model.FastLane Proofs.C06 Proofs.ParseFacts Proofs.C02.
Local Open Scope Z_scope.

(** for every option set in the fast path's domain, every bounds list built by
    From<Vec<BoundOrFiller>> from non-zero indexes (every list the parser accepts), and every
    input: same stdout, same exit status, same completed records when a record fails *)
Theorem C02_fast_lane_equals_general_path :
  forall (o : opt) (l : list bof) (input : bytes),
    fast_eligible o = true -> from_vec l = Some (o_bounds o) -> Forall item_nz l ->
    read_and_cut_fast o input = read_and_cut_str o input.
Proof. exact C02_run. Qed.

(** record by record (which records -s drops, which bounds are out of range, which bytes
    are printed) *)
Theorem C02_each_record :
  forall (o : opt) (l : list bof) (record : bytes),
    fast_eligible o = true -> from_vec l = Some (o_bounds o) -> Forall item_nz l ->
    cut_str o record = Some (cut_fast o record).
Proof. exact C02_record. Qed.

(** the early stop is taken only when every index is positive, every right side is closed
    and none exceeds the stop; resolving such a bound on the truncated field count or on
    the real one gives the same answer *)
Theorem C02_last_interesting_field_is_sound :
  forall (l : list bof) (u : ublist) (L : Z),
    from_vec l = Some u -> lif u = SSome L -> 0 < L -> items_within L (items u).
Proof. exact lif_sound. Qed.

Theorem C02_early_stop_never_changes_a_range :
  forall (L n : nat) (b : ubound),
    bound_within (Z.of_nat L) b -> (L <= n)%nat -> try_into_range b L = try_into_range b n.
Proof. exact early_stop_resolve. Qed.

(** the hypotheses hold for every bounds text the parser accepts *)
Theorem C02_parser_output_qualifies :
  forall (s : bytes) (u : ublist), parse_ublist s = Some u ->
    exists l, from_vec l = Some u /\ Forall item_nz l.
Proof. exact parse_ublist_from_vec. Qed.

Print Assumptions C02_fast_lane_equals_general_path.
Print Assumptions C02_each_record.
Print Assumptions C02_last_interesting_field_is_sound.
Print Assumptions C02_early_stop_never_changes_a_range.
Print Assumptions C02_parser_output_qualifies.
