(** C03 — fixed-memory mode computes the same cut as line-at-a-time mode: for every option set
    -M accepts, every bounds list built by From<Vec<BoundOrFiller>> from items whose closed ranges
    are ordered (parsed bounds with positive sides are: [C03Full.parse_bound_closed_ordered]) and
    every input on whose records each closed range is wholly present or wholly absent, -M gives
    the stdout, the status and the completed records of the same invocation without -M
    (through the general path; C02 carries it to the fast lane). *)
From TucModel Require Import Base.Bytes Model.Bounds Model.BoundsParse Model.Opt
     Model.CutStr Model.FastLane Model.Stream Proofs.C06
     Proofs.C04 Proofs.C03 Proofs.Plain Proofs.C03Full.
Local Open Scope Z_scope.

Theorem C03_fixed_memory_equals_line_mode :
  forall (o : opt) (so : sopt) (l0 : list bof) (input : bytes),
    from_vec l0 = Some (o_bounds o) ->
    Forall item_nz l0 -> Forall closed_ordered (bounds_only l0) -> no_adjacent_fillers l0 ->
    stream_opt o = Some so ->
    Forall (fun r => r = [] \/ no_straddle (Z.of_nat (length (split_on (s_delim so) r))) (items (o_bounds o)))
           (records (s_eol so) input) ->
    Some (run_stream_whole so input) = read_and_cut_str o input.
Proof. exact C03_main. Qed.

(** one record, the reader state after it included *)
Theorem C03_each_record :
  forall (o : opt) (so : sopt) (r rest : bytes) (cs : list bytes),
    stream_opt o = Some so ->
    Forall item_nz (items (o_bounds o)) ->
    no_adjacent_fillers (items (o_bounds o)) -> bounds_only (items (o_bounds o)) <> [] ->
    r <> [] -> bfree (s_eol so) r ->
    asc 0 (Z.of_nat (length (split_on (s_delim so) r))) (items (o_bounds o)) ->
    rec_chunks so (Normal (s_items so) 1 false) false ((r ++ s_eol so :: rest) :: cs) []
    = match cut_str o r with
      | Some (ROk x) => RRecord x (push_rest rest cs)
      | _ => RFail
      end.
Proof. exact C03_record. Qed.

Theorem C03_final_record_without_eol :
  forall (so : sopt) (r : bytes) (its : list bof) (curr : Z) (out : bytes) (started : bool),
    r <> [] -> bfree (s_eol so) r -> no_adjacent_fillers its -> 1 <= curr ->
    rec_chunks so (Normal its curr false) started [r] out
    = match rec_chunks so (Normal its curr false) started [r ++ [s_eol so]] out with
      | RRecord x _ => RLast x
      | other => other
      end.
Proof. exact last_record_without_eol. Qed.

(** the static part of the domain is implied by what -M accepts *)
Theorem C03_domain_is_only_about_the_input :
  forall (n : Z) (its : list bof),
    forward_bounds_ok its = true -> Forall item_nz its ->
    Forall closed_ordered (bounds_only its) ->
    Forall (fun b => br b = SCont -> blast b = true) (bounds_only its) ->
    no_straddle n its -> asc 0 n its.
Proof. exact static_domain. Qed.

(** the reference: under plain options the general path prints, for each bound, its fields
    joined by the (replacement) delimiter *)
Theorem C03_reference_prints_the_requested_fields :
  forall (o : opt) (d : byte) (line : bytes),
    plain_opts o d -> o_trim o = None -> o_only_delimited o = false ->
    line <> [] -> Forall item_nz (items (o_bounds o)) ->
    cut_str o line
    = Some (match spec_items (split_on d line) (o_fallback o) (o_join o) (rep_of o d) (items (o_bounds o)) with
            | Some x => ROk (x ++ [o_eol o])
            | None => RErr
            end).
Proof. exact general_plain_record. Qed.

(** every option set -M accepts is served, without -M, by the fast lane - or by the general path
    when a (one-byte) replacement is given *)
Theorem C03_reference_path_is_well_defined :
  forall (o : opt) (so : sopt), stream_opt o = Some so ->
    (o_replace o = None /\ fast_eligible o = true)
    \/ (exists r, o_replace o = Some [r] /\ fast_eligible o = false).
Proof. exact stream_reference_path. Qed.

Theorem C03_empty_record_fixed_memory :
  forall (so : sopt) (rest : bytes),
    rec_chunks so (Normal (s_items so) 1 false) false ((s_eol so :: rest) :: []) []
    = RRecord [s_eol so] (push_rest rest []).
Proof. intros so rest. cbn [rec_chunks scan_chunk]. rewrite N.eqb_refl. reflexivity. Qed.

Theorem C03_empty_record_line_mode :
  forall o : opt,
    o_only_delimited o = false -> o_trim o = None ->
    (o_regex o = None \/ o_replace o <> None \/ (o_compress o = false /\ o_join o = false)) ->
    cut_str o [] = Some (ROk [o_eol o]).
Proof. exact general_empty_record. Qed.

(** how the input is split into reads does not matter (C04): the statements above speak of the
    whole input arriving in one read *)
Theorem C03_chunking_is_irrelevant :
  forall (so : sopt) (cs : list bytes),
    no_adjacent_fillers (s_items so) -> chunks_ok cs ->
    run_stream so cs = run_stream_whole so (concat cs).
Proof. exact run_stream_equals_single_read. Qed.

(** one field: inside the pending bound it is printed whole, after the delimiter unless it is
    the range's first, and followed by the join delimiter when it completes a bound that is not
    the last; outside the pending bound nothing is printed *)
Theorem C03_field_inside_the_pending_bound :
  forall (so : sopt) (b : ubound) (its : list bof) (curr : Z) (piece : bytes),
    matches b curr = Some true ->
    print_bof so (Bound b :: its) curr piece false true =
    ((if (1 <? curr) && negb (side_eqb (bl b) (SSome curr)) then [sdelim so] else [])
       ++ piece
       ++ (if side_eqb (br b) (SSome curr) then (if s_join so && negb (blast b) then [sdelim so] else []) else []),
     if side_eqb (br b) (SSome curr) then its else Bound b :: its).
Proof. exact stream_field_rule. Qed.

Theorem C03_field_outside_the_pending_bound :
  forall (so : sopt) (b : ubound) (its : list bof) (curr : Z) (piece : bytes),
    matches b curr = Some false ->
    print_bof so (Bound b :: its) curr piece false true = ([], Bound b :: its).
Proof. exact stream_field_outside. Qed.

Print Assumptions C03_fixed_memory_equals_line_mode.
Print Assumptions C03_each_record.
Print Assumptions C03_final_record_without_eol.
Print Assumptions C03_domain_is_only_about_the_input.
Print Assumptions C03_reference_prints_the_requested_fields.
Print Assumptions C03_reference_path_is_well_defined.
Print Assumptions C03_empty_record_fixed_memory.
Print Assumptions C03_empty_record_line_mode.
Print Assumptions C03_chunking_is_irrelevant.
Print Assumptions C03_field_inside_the_pending_bound.
Print Assumptions C03_field_outside_the_pending_bound.
