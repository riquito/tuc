(** C09 — negative indexes are the exact mirror of positive ones: writing n+1-k for -k in any
    bound leaves its range on n parts, its expansion and its complement as they were, and with
    them the output of byte mode, of both field-mode loops and of a whole record. *)
From TucModel Require Import Base.Bytes Model.Bounds Model.CutBytes Model.Scan Model.Opt Model.CutStr
     Model.FastLane Spec.Resolve Proofs.BoundsFacts Proofs.C09 Proofs.C01More Proofs.C09More.
Local Open Scope Z_scope.

(** replacing -k by n+1-k (1 <= k <= n) on either side of a bound never changes the range
    it denotes on n parts, nor whether it resolves *)
Theorem C09_range_unchanged :
  forall (n : nat) (b b' : ubound),
    bound_rewrites (Z.of_nat n) b b' -> try_into_range b' n = try_into_range b n.
Proof. exact C09_try_into_range. Qed.

(** ... nor its expansion into single parts (-c, --json), nor its complement (-m) *)
Theorem C09_unpack_unchanged :
  forall (n : nat) (b b' : ubound),
    bound_rewrites (Z.of_nat n) b b' ->
    match try_into_range b n with
    | Some _ => unpack_bound b' n = unpack_bound b n
    | None => unpack_bound b' n = [b'] /\ unpack_bound b n = [b]
    end.
Proof.
  intros n b b' H. unfold unpack_bound. rewrite (C09_try_into_range n b b' H).
  destruct (try_into_range b n) as [[s e]|]; [reflexivity | split; reflexivity].
Qed.

Theorem C09_complement_unchanged :
  forall (n : nat) (b b' : ubound),
    bound_rewrites (Z.of_nat n) b b' -> complement_bound b' n = complement_bound b n.
Proof. exact C09_complement. Qed.

(** byte mode, under any rewriting of any subset of indexes *)
Theorem C09_byte_mode :
  forall (l l' : list bof) (generic : option bytes) (data : bytes),
    items_rewrite (Z.of_nat (length data)) l l' ->
    cut_bytes_items l' generic data = cut_bytes_items l generic data.
Proof. intros l l' generic data H. apply cut_bytes_items_cong, items_rewrite_same_output, H. Qed.

Theorem C09_field_mode_general :
  forall (o : opt) (line : bytes) (fields : list mtch) (l l' : list bof),
    items_rewrite (Z.of_nat (length fields)) l l' ->
    out_loop o line fields l' = out_loop o line fields l.
Proof. exact C09_general. Qed.

Theorem C09_field_mode_fast :
  forall (o : opt) (d : byte) (line : bytes) (fields : list nat) (l l' : list bof),
    items_rewrite (Z.of_nat (length fields - 1)) l l' ->
    fast_out o d line fields l' = fast_out o d line fields l.
Proof.
  intros o d line fields l l' H. apply fast_out_cong, items_rewrite_same_output, H. reflexivity.
Qed.

(** a whole record of the general path (literal delimiter, field mode: trim, -p, -g, -s, -m,
    -j, -r, format text, fallbacks): another bounds list gives the same output if it rewrites
    negative indexes against the number of fields - the hypothesis asks it for every non-empty
    [line1], not only for the record as staged *)
Theorem C09_whole_record :
  forall (o : opt) (u' : ublist) (line0 : bytes),
    o_regex o = None -> o_btype o = BFields -> o_json o = false ->
    (forall line1, line1 <> [] ->
       items_rewrite (Z.of_nat (length (snd (lit_stage o line1)))) (items (o_bounds o)) (items u')) ->
    cut_str (with_bounds u' o) line0 = cut_str o line0.
Proof. exact C09_record. Qed.

(** --complement keeps the correspondence between the two lists *)
Theorem C09_complement_list :
  forall (n : nat) (l l' : list bof),
    items_rewrite (Z.of_nat n) l l' ->
    match complement_list l n, complement_list l' n with
    | Some u, Some u' => items_rewrite (Z.of_nat n) (items u) (items u')
    | None, None => True
    | _, _ => False
    end.
Proof. exact complement_list_rw. Qed.

Theorem C09_minus_one_is_last :
  forall n : nat, (0 < n)%nat ->
    try_into_range (mkB (SSome (-1)) (SSome (-1)) false None) n = Some ((n - 1)%nat, n).
Proof.
  intros n Hn. rewrite try_into_range_index, pos_of_neg by (unfold in_parts; lia).
  f_equal. f_equal; lia.
Qed.

Theorem C09_minus_n_is_first :
  forall n : nat, (0 < n)%nat ->
    try_into_range (mkB (SSome (- Z.of_nat n)) (SSome (- Z.of_nat n)) false None) n = Some (0%nat, 1%nat).
Proof.
  intros n Hn. rewrite try_into_range_index, pos_of_neg by (unfold in_parts; lia).
  f_equal. f_equal; lia.
Qed.

Print Assumptions C09_range_unchanged.
Print Assumptions C09_unpack_unchanged.
Print Assumptions C09_complement_unchanged.
Print Assumptions C09_byte_mode.
Print Assumptions C09_field_mode_general.
Print Assumptions C09_field_mode_fast.
Print Assumptions C09_minus_one_is_last.
Print Assumptions C09_minus_n_is_first.
Print Assumptions C09_whole_record.
Print Assumptions C09_complement_list.
