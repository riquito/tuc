(** C13 — an out-of-range bound is never silent: on every path a bound that cannot be resolved
    prints its own fallback, else the generic one, else the run fails; a bound that resolves never
    consults a fallback; range expansion and --complement keep an unresolvable bound. *)
From TucModel Require Import Base.Bytes Model.Bounds Model.CutBytes Model.Scan Model.Opt Model.CutStr
     Model.FastLane Model.CutLines Model.Stream Spec.Resolve Proofs.BoundsFacts Proofs.C06 Proofs.C13 Proofs.C01More
     Proofs.C13More Proofs.C09 Proofs.C12.
Local Open Scope Z_scope.

Theorem C13_unresolvable_iff :
  forall (b : ubound) (n : nat), bound_nz b -> (try_into_range b n = None <-> ~ resolves b n).
Proof. exact try_into_range_none_iff. Qed.

Theorem C13_byte_mode :
  forall (b : ubound) (l : list bof) (generic : option bytes) (data : bytes),
    bound_nz b -> ~ resolves b (length data) ->
    cut_bytes_items (Bound b :: l) generic data =
    match fallback_rule (bfb b) generic with
    | None => None
    | Some f => match cut_bytes_items l generic data with
                | Some r => Some (f ++ r)
                | None => None
                end
    end.
Proof.
  intros b l generic data Hnz H. cbn [cut_bytes_items].
  rewrite (proj2 (try_into_range_none_iff b _ Hnz) H), fallback_for_rule. reflexivity.
Qed.

(** the fallback goes through the --json escaping like any other part and is followed by the
    separator of its bound *)
Theorem C13_general_path :
  forall (o : opt) (line : bytes) (fields : list mtch) (b : ubound) (bs : list bof),
    bound_nz b -> ~ resolves b (length fields) ->
    out_loop o line fields (Bound b :: bs) =
    match fallback_rule (bfb b) (o_fallback o) with
    | None => RErr
    | Some f => match emit_part o f with
                | None => RErr
                | Some p => match out_loop o line fields bs with
                            | ROk r => ROk (p ++ sep_of o b ++ r)
                            | e => e
                            end
                end
    end.
Proof.
  intros o line fields b bs Hnz H. rewrite out_loop_cons_bound, <- sep_of_out_sep.
  rewrite (out_piece_unresolved o line fields b (proj2 (try_into_range_none_iff b _ Hnz) H)), fallback_for_rule.
  destruct (fallback_rule (bfb b) (o_fallback o)) as [f|]; [|reflexivity].
  destruct (emit_part o f); reflexivity.
Qed.

(** the range expansion of -c and --json *)
Theorem C13_range_expansion_keeps_unresolvable :
  forall (b : ubound) (n : nat), bound_nz b -> ~ resolves b n -> unpack_bound b n = [b].
Proof.
  intros b n Hnz H. unfold unpack_bound. rewrite (proj2 (try_into_range_none_iff b n Hnz) H). reflexivity.
Qed.

Theorem C13_range_expansion_of_resolvable :
  forall (b : ubound) (n s e : nat),
    bound_nz b -> try_into_range b n = Some (s, e) ->
    unpack_bound b n = singles_from s (e - s)
    /\ Forall (fun u => exists i, (s <= i < e)%nat /\ try_into_range u n = Some (i, S i)) (unpack_bound b n).
Proof. exact C13_unpack_expands. Qed.

Theorem C13_fast_path :
  forall (o : opt) (d : byte) (line : bytes) (fields : list nat) (b : ubound) (bs : list bof),
    bound_nz b -> ~ resolves b (length fields - 1) ->
    fast_out o d line fields (Bound b :: bs) =
    match fallback_rule (bfb b) (o_fallback o) with
    | None => RErr
    | Some f => match fast_out o d line fields bs with
                | ROk r => ROk (f ++ (if o_join o && negb (blast b) then [d] else []) ++ r)
                | e => e
                end
    end.
Proof.
  intros o d line fields b bs Hnz H. cbn [fast_out].
  rewrite (proj2 (try_into_range_none_iff b _ Hnz) H), fallback_for_rule.
  destruct (fallback_rule (bfb b) (o_fallback o)); reflexivity.
Qed.

(** when every bound resolves, taking away all fallbacks - the bounds' own and the generic one -
    changes nothing *)
Theorem C13_resolvable_ignores_fallbacks_general :
  forall (o : opt) (g : option bytes) (line : bytes) (fields : list mtch) (bs : list bof),
    Forall item_nz bs -> Forall (item_resolves (length fields)) bs ->
    out_loop (with_fallback o g) line fields (map strip_fb bs) = out_loop o line fields bs.
Proof. intros o g line fields bs _ R. apply out_loop_cong, strip_fb_same_output, R; reflexivity. Qed.

Theorem C13_resolvable_ignores_fallbacks_fast :
  forall (o : opt) (g : option bytes) (d : byte) (line : bytes) (fields : list nat) (bs : list bof),
    Forall item_nz bs -> Forall (item_resolves (length fields - 1)) bs ->
    fast_out (with_fallback o g) d line fields (map strip_fb bs) = fast_out o d line fields bs.
Proof. intros o g d line fields bs _ R. apply fast_out_cong, strip_fb_same_output, R. reflexivity. Qed.

Theorem C13_resolvable_ignores_fallbacks_bytes :
  forall (g g' : option bytes) (data : bytes) (bs : list bof),
    Forall item_nz bs -> Forall (item_resolves (length data)) bs ->
    cut_bytes_items (map strip_fb bs) g' data = cut_bytes_items bs g data.
Proof. intros g g' data bs _ R. apply cut_bytes_items_cong, strip_fb_same_output, R. Qed.

(** line mode, forward reader: a bound still pending when the input ends prints its fallback by
    the same rule; a range that was entered and is closed on the right fails *)
Theorem C13_lines_one_at_a_time :
  forall (o : opt) (b : ubound) (bs : list bof),
    fwd_tail o (Bound b :: bs) =
    match fallback_rule (bfb b) (o_fallback o) with
    | None => None
    | Some f => match fwd_tail o bs with
                | Some r => Some (f ++ (if o_join o && nonempty bs then [o_eol o] else []) ++ r)
                | None => None
                end
    end.
Proof. intros o b bs. cbn [fwd_tail]. rewrite fallback_for_rule. reflexivity. Qed.

Theorem C13_lines_straddling_range_fails :
  forall (o : opt) (b : ubound) (bs : list bof) (v : Z),
    br b = SSome v -> fwd_finish o (Bound b :: bs) true = None.
Proof. intros o b bs v H. cbn [fwd_finish]. rewrite H. reflexivity. Qed.

(** -M: at the end of a record with [n] fields, a bound that starts beyond them follows the rule *)
Theorem C13_fixed_memory :
  forall (so : sopt) (b : ubound) (bs : list bof) (n l : Z),
    bl b = SSome l -> n < l ->
    pff so (Bound b :: bs) n =
    match fallback_rule (bfb b) (s_fallback so) with
    | None => None
    | Some f => match pff so bs n with
                | Some t => Some (f ++ (if s_join so && negb (blast b) then [sdelim so] else []) ++ t)
                | None => None
                end
    end.
Proof.
  intros so b bs n l Hl Hn. cbn [pff]. rewrite Hl.
  destruct (Z.leb_spec l n); [lia|]. cbn [andb]. rewrite fallback_for_rule. reflexivity.
Qed.

(** --complement (-m) does not drop a bound that does not resolve, so C13_general_path applies
    to it *)
Theorem C13_complement_keeps_unresolvable :
  forall (l : list bof) (n : nat) (b : ubound),
    In (Bound b) l -> bound_nz b -> ~ resolves b n -> In (Bound b) (complement_items l n).
Proof. exact C13_complement_keeps. Qed.

(** a whole record through the general path (literal delimiter, field mode; trim, -p, -g, -s, -m,
    -j, -r, format text): if the record was cut - not dropped by -s, not failed - then every
    requested bound that does not resolve on its fields had a fallback, its own or the generic one *)
Theorem C13_whole_record_is_never_silent :
  forall (o : opt) (line0 out : bytes),
    o_regex o = None -> o_btype o = BFields -> o_json o = false ->
    Forall item_nz (items (o_bounds o)) ->
    cut_str o line0 = Some (ROk out) ->
    let line1 := match o_trim o with Some k => trim_lit k (o_delim o) line0 | None => line0 end in
    let fields := snd (lit_stage o line1) in
    line1 <> [] -> (o_only_delimited o && Nat.eqb (length fields) 1) = false ->
    forall b, In (Bound b) (items (o_bounds o)) -> ~ resolves b (length fields) ->
              fallback_for b (o_fallback o) <> None.
Proof.
  intros o line0 out Hx Hb Hj Hnz H line1 fields Hne Hs b Hin Hr.
  rewrite (cut_str_literal o line0 Hx Hb Hj) in H. cbv zeta in H. fold line1 in H.
  destruct line1 as [|c l1] eqn:E; [contradiction|]. injection H as H.
  exact (finish_record_never_silent o _ _ out Hnz H Hs b Hin Hr).
Qed.

Print Assumptions C13_unresolvable_iff.
Print Assumptions C13_byte_mode.
Print Assumptions C13_general_path.
Print Assumptions C13_range_expansion_keeps_unresolvable.
Print Assumptions C13_range_expansion_of_resolvable.
Print Assumptions C13_fast_path.
Print Assumptions C13_resolvable_ignores_fallbacks_general.
Print Assumptions C13_resolvable_ignores_fallbacks_fast.
Print Assumptions C13_resolvable_ignores_fallbacks_bytes.
Print Assumptions C13_lines_one_at_a_time.
Print Assumptions C13_lines_straddling_range_fails.
Print Assumptions C13_fixed_memory.
Print Assumptions C13_complement_keeps_unresolvable.
Print Assumptions C13_whole_record_is_never_silent.
