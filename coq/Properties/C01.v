(** C01 — field mode emits exactly the requested fields: the splitting core for every non-empty
    literal delimiter (self-overlapping ones included); what -g, -p, -t and -s do to the fields;
    how the general path stages a record; the whole record as a function of its fields.
    See DESIGN.md §3 C01. *)
From TucModel Require Import Base.Bytes Model.Bounds Model.BoundsParse Model.Scan Model.Opt
     Model.CutStr Spec.Fields Proofs.C06 Proofs.ScanSplit Proofs.Plain Proofs.C01More Proofs.PlainMulti Proofs.Greedy
     Proofs.C05.

(** the byte ranges pushed by fill_with_fields_locations cut a non-empty record into
    pieces ps with  p1 ++ d ++ p2 ++ ... ++ pk = record  where every delimiter occurrence used
    is the leftmost one not overlapping the previous (no byte lost, altered or reordered,
    no field contains a delimiter occurrence that a left-to-right scan would have taken) *)
Theorem C01_fields_locations_are_fields :
  forall d line : bytes, d <> [] -> line <> [] ->
    is_split d line (pieces line (fields_of_matches (lit_matches d line) line)).
Proof. exact fields_locations_are_fields. Qed.

(** the same ranges, as values: the offset-level scan equals the value-level scan *)
Theorem C01_offsets_equal_values :
  forall d line : bytes, d <> [] -> line <> [] ->
    pieces line (fields_of_matches (lit_matches d line) line) = split d line.
Proof. exact scan_ranges_split. Qed.

(** the value-level scan [split] computes the fields of the statement *)
Theorem C01_split_is_leftmost_nonoverlapping :
  forall d line : bytes, d <> [] -> is_split d line (split d line).
Proof. exact split_is_split. Qed.

(** the whole record under plain options (one-byte delimiter; any bounds list incl. negative,
    open, repeated, reordered, format text, fallbacks; -j; -r R of any length): for each
    bound, in the order written, the record's fields from the bound's first to its last,
    joined by the (replacement) delimiter, the (replacement) delimiter after every bound but
    the last only under -j/-r, then the EOL *)
Theorem C01_plain_record_is_exactly_the_requested_fields :
  forall (o : opt) (d : byte) (line : bytes),
    plain_opts o d -> o_trim o = None -> o_only_delimited o = false ->
    line <> [] -> Forall item_nz (items (o_bounds o)) ->
    cut_str o line
    = Some (match spec_items (split_on d line) (o_fallback o) (o_join o) (rep_of o d) (items (o_bounds o)) with
            | Some x => ROk (x ++ [o_eol o])
            | None => RErr
            end).
Proof. exact general_plain_record. Qed.

(** the slice from the start of a bound's first field to the end of its last field is those
    fields joined by the delimiter; replacing the delimiter rewrites exactly the separators *)
Theorem C01_replacement_rewrites_exactly_the_separators :
  forall (d : byte) (rep : bytes) (fs : list bytes), fs <> [] -> Forall (dfree d) fs ->
    replace_matches (intercalate [d] fs) (lit_matches [d] (intercalate [d] fs)) rep = intercalate rep fs.
Proof.
  intros d rep fs Hne Hf. rewrite replace_lit_matches by discriminate.
  rewrite split_byte, split_intercalate by assumption. reflexivity.
Qed.

(** the fields of the statement are unique: any cutting of the record that satisfies
    [is_split] is the one the splitter computes *)
Theorem C01_fields_are_unique :
  forall d : bytes, d <> [] -> forall (ps : list bytes) (line : bytes), is_split d line ps -> split d line = ps.
Proof. exact split_unique. Qed.

(** -g counts a run of delimiters as one separator: the fields are those of the record minus
    the empty ones strictly inside it (the ranges still index the original record, so a
    selected range prints the runs between its fields whole) *)
Theorem C01_greedy_fields :
  forall d line : bytes, d <> [] -> line <> [] ->
    pieces line (fields_of_matches (merge_adjacent (lit_matches d line)) line) = squeeze (split d line).
Proof. exact greedy_fields. Qed.

(** -p collapses every run of delimiters before the fields are counted: the compressed
    record is those same fields joined by single delimiters, and cutting it gives them back *)
Theorem C01_compress_collapses_runs :
  forall d line : bytes, d <> [] -> line <> [] ->
    compress_delimiter d line = intercalate d (squeeze (split d line)).
Proof. intros d line Hd _. exact (compress_is_squeeze d line Hd). Qed.

Theorem C01_compress_then_split :
  forall d line : bytes, d <> [] -> line <> [] ->
    split d (compress_delimiter d line) = squeeze (split d line).
Proof. intros d line Hd _. exact (compress_then_split d line Hd). Qed.

(** -t l / -t r: every whole copy of the delimiter at that end goes, nothing else *)
Theorem C01_trim_left :
  forall d l : bytes, d <> [] ->
    exists k, l = copies d k ++ trim_left d l /\ strip_prefix d (trim_left d l) = None.
Proof. exact trim_left_spec. Qed.

Theorem C01_trim_right :
  forall d l : bytes, d <> [] ->
    exists k, l = trim_right d l ++ copies d k /\ forall x, trim_right d l <> x ++ d.
Proof. exact trim_right_spec. Qed.

(** a record has one field - what -s tests - exactly when it holds no delimiter *)
Theorem C01_one_field_iff_no_delimiter :
  forall d line : bytes, d <> [] -> (length (split d line) = 1 <-> ~ occurs_in d line).
Proof. exact one_field_iff_no_delimiter. Qed.

(** the general path on a literal delimiter in field mode is: trim, then (empty record ->
    EOL or nothing under -s), else stage the record ([lit_stage]: compress, split plain or
    greedy), then [finish_record] (-s, complement, output loop, EOL) ... *)
Theorem C01_general_path_stages :
  forall (o : opt) (line0 : bytes),
    o_regex o = None -> o_btype o = BFields -> o_json o = false ->
    cut_str o line0
    = Some (let line1 := match o_trim o with
                         | None => line0
                         | Some k => trim_lit k (o_delim o) line0
                         end in
            match line1 with
            | [] => ROk (if o_only_delimited o then [] else [o_eol o])
            | _ => finish_record o (fst (lit_stage o line1)) (snd (lit_stage o line1))
            end).
Proof. exact cut_str_literal. Qed.

(** ... and the fields it hands to the output loop are the fields of the statement for that
    option set, for every combination of -p and -g *)
Theorem C01_staged_fields_are_the_fields :
  forall (o : opt) (line1 : bytes), o_delim o <> [] -> line1 <> [] ->
    pieces (fst (lit_stage o line1)) (snd (lit_stage o line1)) = spec_fields o line1.
Proof. exact stage_fields. Qed.

(** the whole record as a function of the record, for every non-empty literal delimiter
    (multi-byte and self-overlapping ones included) and every combination of -t, -p, -s, -m,
    -j, -r, format text and fallbacks (everything but -g): after trimming, an empty record
    gives an empty record (nothing under -s); otherwise the fields are those of the
    statement (squeezed under -p), a record with a single field is dropped under -s, and
    each bound (of the request, or of its complement under -m) prints, in the order written,
    its fields joined by the (replacement) delimiter, the (replacement) delimiter after
    every bound but the last only under -j/-r, fallbacks in place, then the EOL *)
Theorem C01_record_as_a_function_of_its_fields :
  forall (o : opt) (line0 : bytes),
    value_opts o -> Forall item_nz (items (o_bounds o)) ->
    cut_str o line0
    = Some (let line1 := match o_trim o with Some k => trim_lit k (o_delim o) line0 | None => line0 end in
            match line1 with
            | [] => ROk (if o_only_delimited o then [] else [o_eol o])
            | _ =>
                let fs := if o_compress o then squeeze (split (o_delim o) line1) else split (o_delim o) line1 in
                if o_only_delimited o && Nat.eqb (length fs) 1 then ROk []
                else match effective_bounds o (length fs) with
                     | None => RErr
                     | Some bs =>
                         match spec_items fs (o_fallback o) (o_join o) (rep_of' o) bs with
                         | Some x => ROk (x ++ [o_eol o])
                         | None => RErr
                         end
                     end
            end).
Proof. exact general_record_value. Qed.

(** ... and under -g (with any of -t, -p, -s, -m, -j, -r, format text, fallbacks): the fields
    counted are the first field, the non-empty ones and the last ([kept_v] gives their
    positions among all the fields of the record; as values they are [squeeze]); a bound that
    resolves to the counted fields s+1..e prints every field of the record from the first of
    them to the last of them joined by the (replacement) delimiter - so the runs of
    delimiters between them are printed whole, or each delimiter of a run replaced under -r *)
Theorem C01_record_as_a_function_of_its_fields_greedy :
  forall (o : opt) (line0 : bytes),
    greedy_opts o -> Forall item_nz (items (o_bounds o)) ->
    cut_str o line0
    = Some (let d := o_delim o in
            let line1 := match o_trim o with Some k => trim_lit k d line0 | None => line0 end in
            match line1 with
            | [] => ROk (if o_only_delimited o then [] else [o_eol o])
            | _ =>
                let ps := if o_compress o then squeeze (split d line1) else split d line1 in
                let ks := kept_v ps in
                if o_only_delimited o && Nat.eqb (length ks) 1 then ROk []
                else match effective_bounds o (length ks) with
                     | None => RErr
                     | Some bs =>
                         match spec_items_g ps ks (o_fallback o) (o_join o) (rep_of' o) bs with
                         | Some x => ROk (x ++ [o_eol o])
                         | None => RErr
                         end
                     end
            end).
Proof.
  intros o line0 [Hd [Hx [Hj [Hb Hg]]]] Hnz. rewrite (general_record o line0 Hd Hx Hj Hb Hnz), Hg. reflexivity.
Qed.

(** as values, the fields counted under -g are the squeezed ones *)
Theorem C01_greedy_counted_fields_are_the_squeezed_ones :
  forall ps : list bytes, map (fun k => nth k ps []) (kept_v ps) = squeeze ps.
Proof. exact kept_v_is_squeeze. Qed.

(** the slice from the start of a bound's first field to the end of its last is those
    fields joined by the delimiter, for any delimiter; -r rewrites exactly the separators *)
Theorem C01_replacement_rewrites_exactly_the_separators_any_delimiter :
  forall (d rep : bytes) (fs : list bytes), d <> [] -> fs <> [] -> leftmost_fields d fs ->
    replace_matches (intercalate d fs) (lit_matches d (intercalate d fs)) rep = intercalate rep fs.
Proof. exact replace_joined_gen. Qed.

(** non-vacuity: '--' in '---' (self-overlapping): fields "" and "-" *)
Example C01_self_overlapping :
  pieces [45;45;45]%N (fields_of_matches (lit_matches [45;45]%N [45;45;45]%N) [45;45;45]%N)
  = [[]; [45%N]].
Proof. reflexivity. Qed.

(** non-vacuity: a--b-  under -p and under -g: fields a, b and the empty last one *)
Example C01_squeeze_example :
  compress_delimiter [45]%N [97;45;45;98;45]%N = [97;45;98;45]%N
  /\ squeeze (split [45]%N [97;45;45;98;45]%N) = [[97]; [98]; []]%N
  /\ pieces [97;45;45;98;45]%N
        (fields_of_matches (merge_adjacent (lit_matches [45]%N [97;45;45;98;45]%N)) [97;45;45;98;45]%N)
     = [[97]; [98]; []]%N.
Proof. repeat split; reflexivity. Qed.

(** non-vacuity: '--' as delimiter, -p -s -j, bounds 2,1 on  a----b--  : fields a, b, "" *)
Example C01_value_example :
  squeeze (split [45;45]%N [97;45;45;45;45;98;45;45]%N) = [[97]; [98]; []]%N
  /\ spec_items [[97]; [98]; []]%N None true [45;45]%N
        [Bound (mkB (SSome 2) (SSome 2) false None); Bound (mkB (SSome 1) (SSome 1) true None)]
     = Some [98;45;45;97]%N.
Proof. split; reflexivity. Qed.

(** non-vacuity: a--b-c under -g: counted fields a, b, c at positions 0, 2, 3; the bound 1:2
    prints  a--b  (the run whole), and  a//b  under -r / *)
Example C01_greedy_example :
  kept_v (split [45]%N [97;45;45;98;45;99]%N) = [0; 2; 3]
  /\ spec_items_g (split [45]%N [97;45;45;98;45;99]%N) [0; 2; 3] None false [45]%N
        [Bound (mkB (SSome 1) (SSome 2) true None)] = Some [97;45;45;98]%N
  /\ spec_items_g (split [45]%N [97;45;45;98;45;99]%N) [0; 2; 3] None true [47]%N
        [Bound (mkB (SSome 1) (SSome 2) true None)] = Some [97;47;47;98]%N.
Proof. repeat split; reflexivity. Qed.

Print Assumptions C01_fields_locations_are_fields.
Print Assumptions C01_offsets_equal_values.
Print Assumptions C01_split_is_leftmost_nonoverlapping.
Print Assumptions C01_plain_record_is_exactly_the_requested_fields.
Print Assumptions C01_replacement_rewrites_exactly_the_separators.
Print Assumptions C01_fields_are_unique.
Print Assumptions C01_greedy_fields.
Print Assumptions C01_compress_collapses_runs.
Print Assumptions C01_compress_then_split.
Print Assumptions C01_trim_left.
Print Assumptions C01_trim_right.
Print Assumptions C01_one_field_iff_no_delimiter.
Print Assumptions C01_general_path_stages.
Print Assumptions C01_staged_fields_are_the_fields.
Print Assumptions C01_record_as_a_function_of_its_fields.
Print Assumptions C01_record_as_a_function_of_its_fields_greedy.
Print Assumptions C01_greedy_counted_fields_are_the_squeezed_ones.
Print Assumptions C01_replacement_rewrites_exactly_the_separators_any_delimiter.
