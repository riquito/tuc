(** C04 — fixed-memory output does not depend on how the input is chunked. *)
From TucModel Require Import Base.Bytes Model.Bounds Model.BoundsParse Model.Opt
     Model.Stream Proofs.C04 Proofs.C04Parse Proofs.C03.

(** for every option set -M accepts, every input and every two ways of splitting it into
    successive non-empty reads: same bytes written, same status *)
Theorem C04_segmentation_independence :
  forall (so : sopt) (cs cs' : list bytes),
    no_adjacent_fillers (s_items so) ->
    chunks_ok cs -> chunks_ok cs' -> concat cs = concat cs' ->
    run_stream so cs = run_stream so cs'.
Proof. exact run_stream_segmentation_independent. Qed.

(** in particular every segmentation (every buffer capacity, one byte at a time, ...) gives
    what the whole input gives when it arrives in a single read *)
Theorem C04_any_segmentation_equals_single_read :
  forall (so : sopt) (cs : list bytes),
    no_adjacent_fillers (s_items so) -> chunks_ok cs ->
    run_stream so cs = run_stream_whole so (concat cs).
Proof. exact run_stream_equals_single_read. Qed.

(** the side condition holds for every bounds argument the parser accepts, hence for every
    -M invocation *)
Theorem C04_side_condition_always_holds :
  forall (s : bytes) (u : ublist), parse_ublist s = Some u -> no_adjacent_fillers (items u).
Proof. exact parse_ublist_naf. Qed.

Theorem C04_stream_items_are_the_parsed_bounds :
  forall (o : opt) (so : sopt), stream_opt o = Some so -> s_items so = items (o_bounds o).
Proof. intros o so H. apply (stream_opt_view o so H). Qed.

Print Assumptions C04_segmentation_independence.
Print Assumptions C04_any_segmentation_equals_single_read.
Print Assumptions C04_side_condition_always_holds.
Print Assumptions C04_stream_items_are_the_parsed_bounds.
