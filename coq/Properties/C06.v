(** C06 — byte mode is exact and binary-safe: what is printed is the selected bytes and the format
    text, whatever the byte values; an empty input prints nothing. *)
From TucModel Require Import Base.Bytes Model.Bounds Model.CutBytes Spec.BytesMode Proofs.C06.

(** every input, every list of resolvable bounds, any format text: the output is exactly
    the selected bytes in request order, nothing added (no EOL), no byte value special
    (the statement is over all [N], in particular over all bytes) *)
Theorem C06_byte_mode_exact :
  forall (l : ublist) (generic : option bytes) (data : bytes),
    data <> [] ->
    Forall item_nz (items l) ->
    Forall (item_resolves (length data)) (items l) ->
    cut_bytes l generic data = Done (spec_bytes (items l) data).
Proof. exact C06_exact. Qed.

Theorem C06_empty_input :
  forall (l : ublist) (generic : option bytes), cut_bytes l generic [] = Done [].
Proof. reflexivity. Qed.

Print Assumptions C06_byte_mode_exact.
Print Assumptions C06_empty_input.
