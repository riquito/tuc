(** C19 — contradictory or unsupported option sets are rejected up front: the decision table over all
    abstract option sets, a regex with -j or -p and no replacement fails every record, and what -M
    accepts is exactly the documented set. *)
From TucModel Require Import Base.Bytes Model.Bounds Model.BoundsParse Model.Scan Model.Regex Model.Opt
     Model.CutStr Model.Stream Model.Args Model.Main Spec.OptTable Proofs.C19.

(** for every one of the 5 * 2^11 * 3 abstract option sets (mode, -d, -e, -g, -p, -s, -m, -j,
    --no-join, --json, -r, -t, -M absent/0/positive) the model of parse_args plus the -M
    eligibility test decides as the statement says (finite domain, checked inside the kernel) *)
Theorem C19_decision_table :
  forall s : optset, decision_eqb (decide_spec s) (decide_model s) = true.
Proof. exact C19_every_option_set. Qed.

Theorem C19_regex_with_join_or_compress_fails_each_record :
  forall (o : opt) (line : bytes),
    o_regex o <> None -> o_replace o = None -> (o_compress o || o_join o) = true ->
    cut_str o line = Some RErr.
Proof. exact C19_regex_join_without_replacement_fails. Qed.

Theorem C19_fixed_memory_eligibility :
  forall o : opt,
    (exists so, stream_opt o = Some so) <->
    (exists d, o_delim o = [d])
    /\ o_complement o = false /\ o_greedy o = false /\ o_compress o = false /\ o_json o = false
    /\ o_btype o = BFields
    /\ (o_replace o = None \/ exists r, o_replace o = Some [r])
    /\ o_trim o = None /\ o_regex o = None /\ o_only_delimited o = false
    /\ forward_bounds_ok (items (o_bounds o)) = true.
Proof. exact C19_stream_eligibility. Qed.

Print Assumptions C19_decision_table.
Print Assumptions C19_regex_with_join_or_compress_fails_each_record.
Print Assumptions C19_fixed_memory_eligibility.
