(** C10 — records are cut independently of one another. *)
From TucModel Require Import Base.Bytes Model.Opt Model.CutStr
     Model.FastLane Model.Stream Proofs.C04 Proofs.C10 Proofs.C10Stream Model.Scratch Proofs.C10Scratch.

(** general path (-f with any options, -c, --json): for every A, B the run over
    (A ++ EOL) ++ B is the run over A ++ EOL followed by the run over B *)
Theorem C10_general_path :
  forall (o : opt) (A B : bytes),
    read_and_cut_str o ((A ++ [o_eol o]) ++ B)
    = seq_outcome (read_and_cut_str o (A ++ [o_eol o])) (read_and_cut_str o B).
Proof. intros o A B. apply run_records_split. Qed.

Theorem C10_fast_path :
  forall (o : opt) (A B : bytes),
    read_and_cut_fast o ((A ++ [o_eol o]) ++ B)
    = seq_outcome (read_and_cut_fast o (A ++ [o_eol o])) (read_and_cut_fast o B).
Proof. intros o A B. apply run_records_split. Qed.

(** a failure on A is a failure on A ++ B with exactly the same complete records delivered *)
Theorem C10_failure_is_preserved :
  forall (o : opt) (A B pre : bytes),
    read_and_cut_str o (A ++ [o_eol o]) = Some (Fail pre) ->
    read_and_cut_str o ((A ++ [o_eol o]) ++ B) = Some (Fail pre).
Proof. intros o A B pre. apply run_records_split_fail. Qed.

Theorem C10_failure_is_preserved_fast :
  forall (o : opt) (A B pre : bytes),
    read_and_cut_fast o (A ++ [o_eol o]) = Some (Fail pre) ->
    read_and_cut_fast o ((A ++ [o_eol o]) ++ B) = Some (Fail pre).
Proof. intros o A B pre. apply run_records_split_fail. Qed.

(** -M: the fixed-memory reader is one per-record function ([stream_cut]: the reader started
    afresh on that record alone) mapped over the records of the input - nothing computed for
    one record (pending bound, field counter, truncation flag, early-stop state) reaches the
    next.  [no_adjacent_fillers] holds for every bounds list the parser builds (C04). *)
Theorem C10_fixed_memory_is_per_record :
  forall (so : sopt) (input : bytes),
    no_adjacent_fillers (s_items so) ->
    Some (run_stream_whole so input) = run_records (stream_cut so) (records (s_eol so) input) [].
Proof. exact stream_whole_per_record. Qed.

(** hence a run of -M splits in the same way *)
Theorem C10_fixed_memory :
  forall (so : sopt) (A B : bytes),
    no_adjacent_fillers (s_items so) ->
    Some (run_stream_whole so ((A ++ [s_eol so]) ++ B))
    = seq_outcome (Some (run_stream_whole so (A ++ [s_eol so]))) (Some (run_stream_whole so B)).
Proof. intros so A B Hn. rewrite !stream_whole_per_record by exact Hn. apply run_records_split. Qed.

(** ... under every way of cutting the three inputs into reads *)
Theorem C10_fixed_memory_any_chunking :
  forall (so : sopt) (A B : bytes) (cs csA csB : list bytes),
    no_adjacent_fillers (s_items so) ->
    chunks_ok cs -> chunks_ok csA -> chunks_ok csB ->
    concat cs = (A ++ [s_eol so]) ++ B -> concat csA = A ++ [s_eol so] -> concat csB = B ->
    Some (run_stream so cs) = seq_outcome (Some (run_stream so csA)) (Some (run_stream so csB)).
Proof.
  intros so A B cs csA csB Hn Hc HcA HcB E EA EB.
  rewrite (run_stream_equals_single_read so cs Hn Hc), (run_stream_equals_single_read so csA Hn HcA),
    (run_stream_equals_single_read so csB Hn HcB), E, EA, EB.
  apply C10_fixed_memory, Hn.
Qed.

Theorem C10_failure_is_preserved_fixed_memory :
  forall (so : sopt) (A B pre : bytes),
    no_adjacent_fillers (s_items so) ->
    run_stream_whole so (A ++ [s_eol so]) = Fail pre ->
    run_stream_whole so ((A ++ [s_eol so]) ++ B) = Fail pre.
Proof.
  intros so A B pre Hn H. pose proof (C10_fixed_memory so A B Hn) as E. rewrite H in E.
  injection E as E. exact E.
Qed.

(** "nothing computed for one record (field positions, compressed copies, ...) influences another": with
    the scratch buffers the code reuses made explicit - the fields vector, the compressed-line buffer, the
    fast lane's vector of field starts, each updated by [clear]/[push]/[pop]/[drain]/[extend] in the code's
    order - a record prints the same whatever the buffers held when it arrived, and a run that hands them
    from record to record prints what the stateless run prints (so the theorems above hold for it) *)
Theorem C10_a_record_ignores_the_scratch_buffers :
  forall (s s' : scratch) (o : opt) (line : bytes),
    fst (cut_str_st s o line) = fst (cut_str_st s' o line)
    /\ fst (cut_fast_st s o line) = fst (cut_fast_st s' o line).
Proof. intros. rewrite !cut_str_st_output, !cut_fast_st_output. split; reflexivity. Qed.

(** whole runs, the buffers handed from record to record *)
Theorem C10_general_path_with_reused_buffers :
  forall (o : opt) (input : bytes), read_and_cut_str_st o input = read_and_cut_str o input.
Proof. intros o input. apply run_records_st_output. intros s r. apply cut_str_st_output. Qed.

Theorem C10_fast_path_with_reused_buffers :
  forall (o : opt) (input : bytes), read_and_cut_fast_st o input = read_and_cut_fast o input.
Proof.
  intros o input. apply run_records_st_output. intros s r. rewrite <- (cut_fast_st_output s o r).
  destruct (cut_fast_st s o r). reflexivity.
Qed.

Print Assumptions C10_general_path.
Print Assumptions C10_fast_path.
Print Assumptions C10_failure_is_preserved.
Print Assumptions C10_failure_is_preserved_fast.
Print Assumptions C10_fixed_memory_is_per_record.
Print Assumptions C10_fixed_memory.
Print Assumptions C10_fixed_memory_any_chunking.
Print Assumptions C10_failure_is_preserved_fixed_memory.
Print Assumptions C10_a_record_ignores_the_scratch_buffers.
Print Assumptions C10_general_path_with_reused_buffers.
Print Assumptions C10_fast_path_with_reused_buffers.
