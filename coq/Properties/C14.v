(** C14 — failures are reported, never swallowed, and never corrupt earlier output.
    The theorems are about the I/O envelope model of main() (one buffered stdout flushed with the
    error propagated on every branch) and about the record iteration; signals, the kernel's pipe
    semantics and std's EINTR handling are runtime facts exercised through the fault-injection
    shim, not proved. *)
From TucModel Require Import Base.Bytes Model.Opt
     Model.CutStr Model.FastLane Model.Stream Model.IO Proofs.C04 Proofs.C10Stream Proofs.C14 Proofs.C14More.

(** whatever the writer fault, the delivered bytes are a prefix of what the run produced *)
Theorem C14_delivered_is_a_prefix :
  forall (r : outcome) (read_ok : bool) (wk : option nat),
    match r with
    | Done out | Fail out => is_prefix (snd (envelope r read_ok wk)) out
    | _ => snd (envelope r read_ok wk) = []
    end.
Proof. exact delivered_is_prefix. Qed.

Theorem C14_success_means_everything_delivered :
  forall (r : outcome) (read_ok : bool) (wk : option nat),
    fst (envelope r read_ok wk) = 0 ->
    exists out, r = Done out /\ read_ok = true /\ snd (envelope r read_ok wk) = out.
Proof. exact success_means_everything_delivered. Qed.

Theorem C14_a_fault_is_never_a_success :
  forall (out : bytes) (read_ok : bool) (wk : option nat),
    read_ok = false \/ fits out wk = false -> fst (envelope (Done out) read_ok wk) = 1.
Proof.
  intros out read_ok wk [->|H]; cbn [envelope fst]; [reflexivity|]. rewrite H, andb_false_r. reflexivity.
Qed.

Theorem C14_failing_record_keeps_earlier_records :
  forall (o : opt) (A B a : bytes),
    read_and_cut_str o (A ++ [o_eol o]) = Some (Done a) ->
    match read_and_cut_str o ((A ++ [o_eol o]) ++ B) with
    | Some (Done out) | Some (Fail out) => is_prefix a out
    | _ => True
    end.
Proof. intros o A B a. apply run_records_split_done. Qed.

Theorem C14_failing_record_keeps_earlier_records_fast :
  forall (o : opt) (A B a : bytes),
    read_and_cut_fast o (A ++ [o_eol o]) = Some (Done a) ->
    match read_and_cut_fast o ((A ++ [o_eol o]) ++ B) with
    | Some (Done out) | Some (Fail out) => is_prefix a out
    | _ => True
    end.
Proof. intros o A B a. apply run_records_split_done. Qed.

Theorem C14_failing_cut_is_reported :
  forall (pre : bytes) (read_ok : bool) (wk : option nat), fst (envelope (Fail pre) read_ok wk) = 1.
Proof. reflexivity. Qed.

(** what a failing run has delivered, exactly: the outputs - complete and unmodified - of the
    records before the first failing one, nothing of that record or of later ones.  General path
    (also -c, --json, -e) and -M; the fast lane equals the general path (C02). *)
Theorem C14_failure_delivers_exactly_the_earlier_records :
  forall (o : opt) (input pre : bytes),
    read_and_cut_str o input = Some (Fail pre) <->
    exists rs1 r rs2 outs, records (o_eol o) input = rs1 ++ r :: rs2
                           /\ Forall2 (cut_ok (cut_str o)) rs1 outs /\ cut_str o r = Some RErr
                           /\ pre = concat outs.
Proof. intros o input pre. apply run_records_fail. Qed.

Theorem C14_success_delivers_every_record :
  forall (o : opt) (input out : bytes),
    read_and_cut_str o input = Some (Done out) <->
    exists outs, Forall2 (cut_ok (cut_str o)) (records (o_eol o) input) outs /\ out = concat outs.
Proof. intros o input out. apply run_records_done. Qed.

Theorem C14_fixed_memory_failure_delivers_exactly_the_earlier_records :
  forall (so : sopt) (input pre : bytes),
    no_adjacent_fillers (s_items so) ->
    (run_stream_whole so input = Fail pre <->
     exists rs1 r rs2 outs, records (s_eol so) input = rs1 ++ r :: rs2
                            /\ Forall2 (cut_ok (stream_cut so)) rs1 outs /\ stream_cut so r = Some RErr
                            /\ pre = concat outs).
Proof.
  intros so input pre Hn. rewrite <- (run_records_fail (stream_cut so) (records (s_eol so) input) [] pre).
  rewrite <- (stream_whole_per_record so input Hn). split; [intros ->; reflexivity | intros [= H]; exact H].
Qed.

Theorem C14_fixed_memory_success_delivers_every_record :
  forall (so : sopt) (input out : bytes),
    no_adjacent_fillers (s_items so) ->
    (run_stream_whole so input = Done out <->
     exists outs, Forall2 (cut_ok (stream_cut so)) (records (s_eol so) input) outs /\ out = concat outs).
Proof.
  intros so input out Hn. rewrite <- (run_records_done (stream_cut so) (records (s_eol so) input) [] out).
  rewrite <- (stream_whole_per_record so input Hn). split; [intros ->; reflexivity | intros [= H]; exact H].
Qed.

Print Assumptions C14_delivered_is_a_prefix.
Print Assumptions C14_success_means_everything_delivered.
Print Assumptions C14_a_fault_is_never_a_success.
Print Assumptions C14_failing_record_keeps_earlier_records.
Print Assumptions C14_failing_record_keeps_earlier_records_fast.
Print Assumptions C14_failing_cut_is_reported.
Print Assumptions C14_failure_delivers_exactly_the_earlier_records.
Print Assumptions C14_success_delivers_every_record.
Print Assumptions C14_fixed_memory_failure_delivers_exactly_the_earlier_records.
Print Assumptions C14_fixed_memory_success_delivers_every_record.
