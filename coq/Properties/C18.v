(** C18 — the bounds mini-language.  A single bound, and a list without format text, is accepted
    iff it is in the language of a grammar written from the documentation
    (Spec/BoundsGrammar.v), and the bounds built are those the grammar assigns.  A format string
    ({...}) is accepted iff it is in the grammar [fmt_items], which includes the documented
    sub-language [fmt_doc]; its literal text is rendered by one left-to-right pass.  What is
    accepted is well-formed; what is rejected is rejected before any input is read. *)
From TucModel Require Import Base.Bytes Model.Bounds Model.BoundsParse Model.Args Model.Main
     Spec.BoundsGrammar Proofs.C06 Proofs.ParseFacts Proofs.C18 Proofs.C18Iff Proofs.C18Fmt Proofs.C18Render.
Local Open Scope Z_scope.

(** i32::from_str as used by Side::from_str: optional single sign, at least one digit,
    32-bit range *)
Theorem C18_integer_iff :
  forall (s : bytes) (v : Z), parse_i32 s = Some v <-> int_lit s v /\ in_i32 v.
Proof. exact parse_i32_iff. Qed.

(** a single bound is accepted iff it is N, N:M, N: or :M with non-zero 32-bit integers, a
    same-sign range not decreasing, optionally followed by '=' and any fallback text (which
    may contain ':' and '='); the bound built is the one the grammar assigns *)
Theorem C18_bound_accepted_iff :
  forall (s : bytes) (b : ubound), parse_bound s = Some b <-> bound_text s b.
Proof. exact parse_bound_iff. Qed.

(** a list without format text is accepted iff it is a comma-separated list of such bounds *)
Theorem C18_list_accepted_iff :
  forall s : bytes, existsb is_brace s = false ->
    ((exists u, parse_ublist s = Some u) <-> (exists bs, csv_text s bs)).
Proof. exact parse_ublist_iff. Qed.

Theorem C18_list_structure :
  forall (s : bytes) (u : ublist), existsb is_brace s = false -> parse_ublist s = Some u ->
    exists bs, csv_text s bs /\ items u = mark_last (map Bound bs).
Proof. exact parse_ublist_structure. Qed.

(** format strings: the scanner accepts exactly the language [fmt_items] (literal text with
    doubled braces, '{' list '}', and the reading of "{{" / "}}" next to a delimiting brace
    spelled out by its side conditions) and builds the items the grammar assigns *)
Theorem C18_format_accepted_iff :
  forall (s : bytes) (its : list bof), scan_format s false [] [] = Some its <-> fmt_items s its.
Proof. exact scan_format_iff. Qed.

(** the documented language - every '{...}' holds a list without braces, braces balance,
    "{{" and "}}" are literal braces - is accepted, with the items it denotes *)
Theorem C18_documented_format_is_accepted :
  forall (s : bytes) (its : list bof), fmt_doc s its -> scan_format s false [] [] = Some its.
Proof. exact documented_format_accepted. Qed.

(** the whole of from_str on an argument holding a brace: accepted iff in the language and
    at least one bound occurs *)
Theorem C18_format_list_accepted_iff :
  forall (s : bytes) (u : ublist), existsb is_brace s = true ->
    (parse_ublist s = Some u <->
     exists its, fmt_items s its /\ bounds_only its <> [] /\ from_vec its = Some u).
Proof. exact parse_ublist_format_iff. Qed.

(** literal text is rendered by one left-to-right pass: "{{" -> "{", "}}" -> "}",
    backslash-n -> LF, backslash-t -> TAB, every other byte as it is *)
Theorem C18_literal_text_rendering :
  forall t : bytes, render_filler t = render_spec t.
Proof. exact render_filler_is_spec. Qed.

Theorem C18_accepted_bound_is_well_formed :
  forall (s : bytes) (b : ubound), parse_bound s = Some b ->
    side_i32 (bl b) /\ side_i32 (br b)
    /\ (forall l r, bl b = SSome l -> br b = SSome r -> same_sign r l = true -> l <= r).
Proof. exact parse_bound_sound. Qed.

Theorem C18_accepted_list_has_no_zero_index :
  forall (s : bytes) (u : ublist), parse_ublist s = Some u -> Forall item_nz (items u).
Proof. exact parse_ublist_nz. Qed.

Theorem C18_rejected_before_any_input :
  forall argv : args, parse_args argv = PExit1 -> forall input, run_main argv input = MOut (Fail []).
Proof. intros argv H input. unfold run_main. rewrite H. reflexivity. Qed.

Theorem C18_plain_text_is_reproduced :
  forall s : bytes, forallb plain_byte s = true -> render_filler s = s.
Proof. exact render_plain. Qed.

Example C18_escapes :   (* a{{b}}\n\t  ->  a{b} LF TAB *)
  render_filler [97;123;123;98;125;125;92;110;92;116]%N = [97;123;98;125;10;9]%N.
Proof. reflexivity. Qed.

Example C18_accepts : parse_ublist [123;49;125;125;125]%N <> None /\ parse_ublist [61;120]%N = None
                      /\ parse_ublist [123;49;123;50;125]%N = None /\ parse_ublist [123;123]%N = None.
Proof. repeat split; try reflexivity. discriminate. Qed.

Print Assumptions C18_integer_iff.
Print Assumptions C18_bound_accepted_iff.
Print Assumptions C18_list_accepted_iff.
Print Assumptions C18_list_structure.
Print Assumptions C18_format_accepted_iff.
Print Assumptions C18_documented_format_is_accepted.
Print Assumptions C18_format_list_accepted_iff.
Print Assumptions C18_literal_text_rendering.
Print Assumptions C18_accepted_bound_is_well_formed.
Print Assumptions C18_accepted_list_has_no_zero_index.
Print Assumptions C18_rejected_before_any_input.
Print Assumptions C18_plain_text_is_reproduced.

(** -2:=a:b=c is in the language (a negative index, an open right side, a fallback holding ':'
    and '='), 3:2 and 0 are not *)
Example C18_grammar_examples :
  bound_text [45;50;58;61;97;58;98;61;99]%N (mkB (SSome (-2)) SCont false (Some [97;58;98;61;99]%N))
  /\ parse_bound [51;58;50]%N = None /\ parse_bound [48]%N = None.
Proof.
  split; [|split; reflexivity].
  apply (bt_fallback [45;50;58]%N [97;58;98;61;99]%N (SSome (-2)) SCont).
  apply (rt_from [45;50]%N (-2)). split; [|split; [unfold in_i32; lia | lia]].
  exact (il_minus [50]%N ltac:(discriminate) ltac:(repeat constructor; unfold digit; lia)).
Qed.

(** a{{{1:2=x}}}b is in the documented language: text "a{{", the bound 1:2=x, text "}}b" *)
Example C18_format_example :
  scan_format [97;123;123;123;49;58;50;61;120;125;125;125;98]%N false [] []
  = Some [Filler [97;123]%N; Bound (mkB (SSome 1) (SSome 2) false (Some [120]%N)); Filler [125;98]%N].
Proof. reflexivity. Qed.
