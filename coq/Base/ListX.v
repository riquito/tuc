(** List lemmas missing from the 8.16 standard library, and the arithmetic of [slice] *)
From Coq Require Import List Arith Lia.
From TucModel Require Import Base.Bytes.
Import ListNotations.

Lemma nth_firstn_lt {A} (l : list A) k m d : k < m -> nth k (firstn m l) d = nth k l d.
Proof.
  revert k m; induction l as [|x l IH]; intros k m H.
  - rewrite firstn_nil. reflexivity.
  - destruct m; [lia|]. destruct k; [reflexivity|]. cbn. apply IH. lia.
Qed.

Lemma nth_skipn_add {A} (l : list A) k m d : nth k (skipn m l) d = nth (m + k) l d.
Proof.
  revert l; induction m as [|m IH]; intros l; [reflexivity|].
  destruct l as [|x l]; [destruct k; reflexivity|]. cbn. apply IH.
Qed.

Lemma nth_skipn {A} : forall (l : list A) i, nth_error l i = hd_error (skipn i l).
Proof. induction l as [|x l IH]; intros [|i]; cbn; try reflexivity. apply IH. Qed.

Lemma skipn_S_tl {A} : forall (l : list A) i, skipn (S i) l = tl (skipn i l).
Proof. intros l i. revert l. induction i as [|i IH]; intros [|x l]; try reflexivity. exact (IH l). Qed.

Lemma skipn_nth_cons {A} (l : list A) i x : nth_error l i = Some x -> skipn i l = x :: skipn (S i) l.
Proof.
  rewrite nth_skipn, skipn_S_tl. destruct (skipn i l); [discriminate|].
  intros E. injection E as ->. reflexivity.
Qed.

Lemma skipn_skipn' {A} (x y : nat) (l : list A) : skipn x (skipn y l) = skipn (x + y) l.
Proof.
  revert l; induction y as [|y IH]; intros l.
  - rewrite Nat.add_0_r. reflexivity.
  - destruct l as [|a l]; [rewrite !skipn_nil; reflexivity|].
    rewrite Nat.add_succ_r. cbn [skipn]. apply IH.
Qed.

Lemma nth_error_firstn_lt {A} (l : list A) k m : k < m -> nth_error (firstn m l) k = nth_error l k.
Proof.
  revert k m; induction l as [|x l IH]; intros k m H.
  - rewrite firstn_nil. reflexivity.
  - destruct m; [lia|]. destruct k; [reflexivity|]. cbn. apply IH. lia.
Qed.

Lemma firstn_add_app {A} (l : list A) a b : firstn (a + b) l = firstn a l ++ firstn b (skipn a l).
Proof.
  revert l; induction a as [|a IH]; intros l; [reflexivity|].
  destruct l as [|x l]; [cbn; rewrite firstn_nil; reflexivity|]. cbn. f_equal. apply IH.
Qed.

Lemma app_nonempty {A} (a b : list A) : a <> [] -> a ++ b <> [].
Proof. destruct a; [contradiction | discriminate]. Qed.

Lemma app_prefix {A} (x y u v : list A) : x ++ y = u ++ v -> length u <= length x -> exists w, x = u ++ w.
Proof.
  intros E Hl. destruct (app_eq_app _ _ _ _ E) as [l [[-> _]|[-> _]]]; [exists l; reflexivity|].
  rewrite app_length in Hl. destruct l; [exists []; rewrite !app_nil_r; reflexivity | cbn in Hl; lia].
Qed.

Lemma firstn_app_length {A} (a b : list A) : firstn (length a) (a ++ b) = a.
Proof. rewrite firstn_app, Nat.sub_diag, firstn_all. apply app_nil_r. Qed.

Lemma skipn_app_length {A} (a b : list A) : skipn (length a) (a ++ b) = b.
Proof. induction a; [reflexivity | exact IHa]. Qed.

Lemma in_firstn {A} (l : list A) n x : In x (firstn n l) -> In x l.
Proof.
  revert n; induction l as [|y l IH]; intros n H; [rewrite firstn_nil in H; exact H|].
  destruct n; [destruct H|]. cbn in H. destruct H as [->|H]; [left; reflexivity | right; eapply IH, H].
Qed.

Lemma in_skipn {A} (l : list A) n x : In x (skipn n l) -> In x l.
Proof.
  revert l; induction n as [|n IH]; intros l H; [exact H|].
  destruct l as [|y l]; [exact H|]. right. apply IH, H.
Qed.

Lemma rev_nil_inv {A} (l : list A) : rev l = [] -> l = [].
Proof. intros H. rewrite <- (rev_involutive l), H. reflexivity. Qed.

Lemma rev_nonempty {A} (l : list A) : l <> [] -> rev l <> [].
Proof. intros H E. apply H, rev_nil_inv, E. Qed.

Lemma Forall2_diag {A} (R : A -> A -> Prop) l : (forall x, R x x) -> Forall2 R l l.
Proof. intros H. induction l; constructor; auto. Qed.

Lemma Forall2_Forall {A B} (R : A -> B -> Prop) (P : A -> Prop) (Q : B -> Prop) l l' :
  (forall x y, R x y -> P x -> Q y) -> Forall2 R l l' -> Forall P l -> Forall Q l'.
Proof.
  intros H. induction 1 as [|x y l l' Hxy _ IH]; intros HP; [constructor|].
  inversion HP; subst. constructor; [eapply H; eassumption | apply IH; assumption].
Qed.

Lemma Forall2_In_l {A B} (R : A -> B -> Prop) l l' x :
  Forall2 R l l' -> In x l -> exists y, In y l' /\ R x y.
Proof.
  induction 1 as [|x0 y l l' Hxy _ IH]; intros Hin; [contradiction|].
  destruct Hin as [->|Hin]; [exists y; split; [left; reflexivity | exact Hxy]|].
  destruct (IH Hin) as [y' [Hy HR]]. exists y'. split; [right; exact Hy | exact HR].
Qed.

Lemma Forall2_nth {A B} (R : A -> B -> Prop) : forall l1 l2 i b,
  Forall2 R l1 l2 -> nth_error l2 i = Some b -> exists a, nth_error l1 i = Some a /\ R a b.
Proof.
  induction l1 as [|x l1 IH]; intros l2 i b H Hb; inversion H; subst; [destruct i; discriminate|].
  destruct i as [|i']; [cbn in Hb; injection Hb as <-; eexists; split; [reflexivity | assumption]|].
  cbn [nth_error] in *. eapply IH; eassumption.
Qed.

Lemma Forall2_len {A B} (R : A -> B -> Prop) l1 l2 : Forall2 R l1 l2 -> length l1 = length l2.
Proof. induction 1; cbn; congruence. Qed.

Lemma nth_error_seq start n k : k < n -> nth_error (seq start n) k = Some (start + k).
Proof.
  intros H. rewrite (nth_error_nth' _ 0) by (rewrite seq_length; exact H). rewrite seq_nth by exact H. reflexivity.
Qed.

Lemma select_all {A} (l : list A) : Forall2 (fun k x => nth_error l k = Some x) (seq 0 (length l)) l.
Proof.
  enough (G : forall l pre, Forall2 (fun k x => nth_error (pre ++ l) k = Some x) (seq (length pre) (length l)) l)
    by exact (G l []).
  clear l. induction l as [|x l IH]; intros pre; cbn [length seq]; constructor.
  - rewrite nth_error_app2, Nat.sub_diag by lia. reflexivity.
  - specialize (IH (pre ++ [x])). rewrite app_length, <- app_assoc, Nat.add_1_r in IH. exact IH.
Qed.

Definition increasing (ks : list nat) : Prop :=
  forall i j a b, i <= j -> nth_error ks i = Some a -> nth_error ks j = Some b -> a <= b.

Lemma seq_increasing start n : increasing (seq start n).
Proof.
  intros i j a b Hij Ha Hb.
  assert (Hi : i < n) by (rewrite <- (seq_length n start); apply nth_error_Some; congruence).
  assert (Hj : j < n) by (rewrite <- (seq_length n start); apply nth_error_Some; congruence).
  rewrite nth_error_seq in Ha, Hb by assumption. injection Ha as <-. injection Hb as <-. lia.
Qed.

Lemma list_ind_tl {A} (P : list A -> Prop) :
  P [] -> (forall x l, P l -> P (tl l) -> P (x :: l)) -> forall l, P l.
Proof.
  intros H0 H. assert (G : forall l, P l /\ P (tl l)).
  { induction l as [|x l [IH1 IH2]]; [split; exact H0|]. split; [apply H; assumption | exact IH1]. }
  intros l. apply G.
Qed.

Lemma list_length_ind {A} (P : list A -> Prop) :
  (forall l, (forall l', length l' < length l -> P l') -> P l) -> forall l, P l.
Proof.
  intros H. assert (G : forall n l, length l < n -> P l).
  { induction n as [|n IH]; intros l Hl; [lia|]. apply H. intros l' Hl'. apply IH. lia. }
  intros l. apply (G (S (length l))). lia.
Qed.

Lemma slice_full {A} (l : list A) : slice l 0 (length l) = l.
Proof. unfold slice. rewrite Nat.sub_0_r. cbn [skipn]. apply firstn_all. Qed.

Lemma slice_empty {A} (l : list A) a : slice l a a = [].
Proof. unfold slice. rewrite Nat.sub_diag. reflexivity. Qed.

Lemma slice_split {A} (l : list A) a b c : a <= b -> b <= c -> slice l a c = slice l a b ++ slice l b c.
Proof.
  intros Hab Hbc. unfold slice.
  replace (c - a) with ((b - a) + (c - b)) by lia.
  rewrite firstn_add_app. f_equal.
  rewrite skipn_skipn'. replace (b - a + a) with b by lia. reflexivity.
Qed.

Lemma firstn_split {A} (l : list A) s e : s <= e -> firstn e l = firstn s l ++ slice l s e.
Proof. intros H. unfold slice. rewrite <- firstn_add_app. f_equal. lia. Qed.

Lemma slice_app_mid {A} (a b r : list A) : slice (a ++ b ++ r) (length a) (length a + length b) = b.
Proof. unfold slice. rewrite skipn_app_length, Nat.add_comm, Nat.add_sub. apply firstn_app_length. Qed.

Lemma slice_rename {A B} (f : A -> B) l a b : slice (map f l) a b = map f (slice l a b).
Proof. unfold slice. rewrite skipn_map, firstn_map. reflexivity. Qed.

Lemma slice_nonempty {A} (line : list A) a b : a < b -> b <= length line -> slice line a b <> [].
Proof.
  intros H1 H2 E. apply (f_equal (@length _)) in E. unfold slice in E.
  rewrite firstn_length, skipn_length in E. cbn in E. lia.
Qed.

Lemma slice_to_end {A} (l : list A) a : slice l a (length l) = skipn a l.
Proof. apply firstn_all2. rewrite skipn_length. lia. Qed.

Lemma slice_empty_iff {A} (l : list A) a b : a <= b -> b <= length l -> (slice l a b = [] <-> a = b).
Proof.
  intros H1 H2. split.
  - intros E. destruct (Nat.eq_dec a b) as [|N]; [assumption|]. exfalso. revert E. apply slice_nonempty; lia.
  - intros ->. apply slice_empty.
Qed.

Lemma Forall2_flat_map_inv {A B} (R : A -> B -> Prop) (f : A -> list A) : forall bs parts,
  Forall2 R (flat_map f bs) parts ->
  exists pss, parts = concat pss /\ Forall2 (fun b ps => Forall2 R (f b) ps) bs pss.
Proof.
  induction bs as [|b bs IH]; intros parts H.
  - inversion H; subst. exists []. split; [reflexivity | constructor].
  - cbn [flat_map] in H. apply Forall2_app_inv_l in H. destruct H as [p1 [p2 [H1 [H2 ->]]]].
    destruct (IH p2 H2) as [pss [-> HF]]. exists (p1 :: pss). split; [reflexivity | constructor; assumption].
Qed.

Lemma Forall2_impl_map {A B C} (P : A -> Prop) (R : A -> B -> Prop) (R' : A -> C -> Prop) (g : B -> C) :
  (forall a b, P a -> R a b -> R' a (g b)) ->
  forall l l', Forall P l -> Forall2 R l l' -> Forall2 R' l (map g l').
Proof.
  intros Himp l l' HP HR. induction HR as [|a b l l' Hab _ IH]; [constructor|].
  inversion HP; subst. constructor; [apply Himp; assumption | apply IH; assumption].
Qed.

Lemma concat_map_singleton {A} (l : list A) : concat (map (fun x => [x]) l) = l.
Proof. induction l as [|x l IH]; [reflexivity|]. cbn. f_equal. exact IH. Qed.

Lemma flat_map_map {A B} (h : A -> B) (F : B -> list B) (g : A -> list A) l :
  (forall x, F (h x) = map h (g x)) -> flat_map F (map h l) = map h (flat_map g l).
Proof.
  intros H. induction l as [|x l IH]; [reflexivity|]. cbn [map flat_map]. rewrite IH, H, map_app. reflexivity.
Qed.
