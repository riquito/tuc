(** C11, whole records and runs: the general path commutes with every injective renaming
    of the bytes, applied to the input and to every option text.  When the option texts hold
    neither LF nor NUL, renaming an option set by the exchange only changes its terminator. *)
From TucModel Require Import Base.Bytes Base.ListX Model.Bounds Model.Scan
     Model.Opt Model.CutBytes Model.CutStr Model.Scratch Proofs.C11 Proofs.C01More Proofs.C12.

Lemma flat_map_natural {A A' B B'} (h : A -> A') (k : B -> B') (g : A -> list B) (g' : A' -> list B') :
  (forall x, g' (h x) = map k (g x)) -> forall l, flat_map g' (map h l) = map k (flat_map g l).
Proof.
  intros H. induction l as [|x l IH]; [reflexivity|]. cbn [map flat_map]. rewrite H, IH, map_app. reflexivity.
Qed.

Lemma existsb_map_ext {A B} (g : A -> B) (p : A -> bool) (p' : B -> bool) :
  (forall x, p' (g x) = p x) -> forall l, existsb p' (map g l) = existsb p l.
Proof. intros H. induction l as [|x l IH]; [reflexivity|]. cbn [map existsb]. rewrite H, IH. reflexivity. Qed.

Lemma option_map_case {A B C} (g : A -> B) (x : option A) (s n : C) :
  match option_map g x with Some _ => s | None => n end = match x with Some _ => s | None => n end.
Proof. destruct x; reflexivity. Qed.

Section Renaming.
  Variable f : byte -> byte.
  Hypothesis f_inj : forall a b, f a = f b -> a = b.
  Notation rn := (map f).

  Definition rename_bound (b : ubound) : ubound := mkB (bl b) (br b) (blast b) (option_map rn (bfb b)).
  Definition rename_item (x : bof) : bof :=
    match x with Bound b => Bound (rename_bound b) | Filler t => Filler (rn t) end.
  Definition rename_ublist (u : ublist) : ublist := mkL (map rename_item (items u)) (lif u).
  Definition rename_opt (o : opt) : opt :=
    mkOpt (rn (o_delim o)) (f (o_eol o)) (rename_ublist (o_bounds o)) (o_btype o) (o_only_delimited o)
          (o_greedy o) (o_compress o) (option_map rn (o_replace o)) (o_trim o) (o_complement o)
          (o_join o) (o_json o) (o_fixed_memory o) (option_map rn (o_fallback o)) (o_regex o).
  Definition rename_rres (r : rres) : rres :=
    match r with ROk out => ROk (rn out) | e => e end.
  Definition rename_outcome (x : outcome) : outcome :=
    match x with Done out => Done (rn out) | Fail pre => Fail (rn pre) | e => e end.

  (** A renamed bound differs from the bound in its fallback text only: what reads the sides and the
      flag of a bound sees no difference, by computation. *)
  Lemma try_into_range_rename b n : try_into_range (rename_bound b) n = try_into_range b n.
  Proof. reflexivity. Qed.

  Lemma matches_rename b i : matches (rename_bound b) i = matches b i.
  Proof. reflexivity. Qed.

  Lemma fallback_for_rename b g :
    fallback_for (rename_bound b) (option_map rn g) = option_map rn (fallback_for b g).
  Proof. unfold fallback_for. cbn [rename_bound bfb]. destruct (bfb b); reflexivity. Qed.

  Lemma bounds_only_rename l : bounds_only (map rename_item l) = map rename_bound (bounds_only l).
  Proof. apply flat_map_natural. intros [b|t]; reflexivity. Qed.

  Lemma mark_last_rename l : mark_last (map rename_item l) = map rename_item (mark_last l).
  Proof.
    induction l as [|[b|t] l IH]; cbn [map rename_item mark_last]; [reflexivity| |].
    - rewrite bounds_only_rename. destruct (bounds_only l); cbn [map]; [reflexivity | rewrite IH; reflexivity].
    - rewrite IH. reflexivity.
  Qed.

  Lemma rightmost_rename : forall bs acc, rightmost acc (map rename_bound bs) = rightmost acc bs.
  Proof. induction bs as [|b bs IH]; intros acc; [reflexivity | apply IH]. Qed.

  Lemma is_sortable_rename l : is_sortable (map rename_item l) = is_sortable l.
  Proof.
    unfold is_sortable. rewrite bounds_only_rename. f_equal. f_equal; apply existsb_map_ext; reflexivity.
  Qed.

  Lemma is_sorted_rename l : is_sorted (map rename_item l) = is_sorted l.
  Proof.
    unfold is_sorted. rewrite bounds_only_rename. destruct (bounds_only l) as [|b bs]; [reflexivity|].
    revert b. induction bs as [|b' bs IH]; intros b; [reflexivity|]. cbn [map is_sorted_from].
    change (bound_le (rename_bound b) (rename_bound b')) with (bound_le b b').
    destruct (bound_le b b'); [apply IH | reflexivity].
  Qed.

  Lemma has_negative_rename l : has_negative_indices (map rename_item l) = has_negative_indices l.
  Proof. unfold has_negative_indices. rewrite bounds_only_rename. apply existsb_map_ext. reflexivity. Qed.

  Lemma is_forward_only_rename l : is_forward_only (map rename_item l) = is_forward_only l.
  Proof. unfold is_forward_only. rewrite is_sortable_rename, is_sorted_rename, has_negative_rename. reflexivity. Qed.

  Lemma from_vec_rename l : from_vec (map rename_item l) = option_map rename_ublist (from_vec l).
  Proof.
    unfold from_vec. rewrite bounds_only_rename, is_sortable_rename, mark_last_rename.
    destruct (bounds_only l) as [|b bs]; [reflexivity|].
    cbn [map rightmost]. rewrite rightmost_rename. reflexivity.
  Qed.

  Lemma rename_of_range a z : rename_bound (of_range a z) = of_range a z.
  Proof. reflexivity. Qed.

  Lemma complement_items_rename l n :
    complement_items (map rename_item l) n = map rename_item (complement_items l n).
  Proof.
    apply flat_map_natural. intros [b|t]; [|reflexivity]. cbn [rename_item]. unfold complement_bound.
    rewrite try_into_range_rename. destruct (try_into_range b n) as [[s e]|]; [|reflexivity].
    rewrite !map_map. reflexivity.
  Qed.

  Lemma complement_list_rename l n :
    complement_list (map rename_item l) n = option_map rename_ublist (complement_list l n).
  Proof.
    unfold complement_list. rewrite complement_items_rename, bounds_only_rename.
    destruct (bounds_only (complement_items l n)); [reflexivity | apply from_vec_rename].
  Qed.

  Lemma rename_single i : rename_bound (single i) = single i.
  Proof. reflexivity. Qed.

  Lemma unpack_bound_rename b n : unpack_bound (rename_bound b) n = map rename_bound (unpack_bound b n).
  Proof.
    unfold unpack_bound. rewrite try_into_range_rename. destruct (try_into_range b n) as [[s e]|]; [|reflexivity].
    generalize (e - s). intros c. revert s. induction c as [|c IH]; intros s; [reflexivity|].
    cbn [singles_from map]. rewrite <- IH. reflexivity.
  Qed.

  Lemma unpack_list_rename l n :
    unpack_list (map rename_item l) n = option_map rename_ublist (unpack_list l n).
  Proof.
    unfold unpack_list. rewrite <- from_vec_rename. f_equal.
    apply flat_map_natural. intros [b|t]; [|reflexivity]. cbn [rename_item].
    rewrite unpack_bound_rename, !map_map. reflexivity.
  Qed.

  Lemma needs_unpack_rename l : needs_unpack (map rename_item l) = needs_unpack l.
  Proof. apply existsb_map_ext. intros [b|t]; reflexivity. Qed.

  Lemma replace_matches_from_rename line rep : forall ms prev,
    replace_matches_from (rn line) prev ms (rn rep) = rn (replace_matches_from line prev ms rep).
  Proof.
    induction ms as [|m0 ms IH]; intros prev; cbn [replace_matches_from]; [apply skipn_map|].
    rewrite slice_rename, IH, !map_app. reflexivity.
  Qed.

  Lemma trim_matches_rename k ms (l : bytes) : trim_matches k ms (rn l) = rn (trim_matches k ms l).
  Proof.
    unfold trim_matches. rewrite map_length.
    destruct (match ms with [] => _ | m :: ms' => _ end) as [a rest]. apply slice_rename.
  Qed.

  (** the matcher of the option set, if any, finds the same matches in the renamed text (no regex; the
      character splitter under a renaming that keeps the character boundaries) *)
  Definition rx_blind (o : opt) : Prop :=
    match o_regex o with
    | Some x => (forall l, rx_greedy x (rn l) = rx_greedy x l) /\ (forall l, rx_normal x (rn l) = rx_normal x l)
    | None => True
    end.

  Lemma rx_blind_none o : o_regex o = None -> rx_blind o.
  Proof. intros H. unfold rx_blind. rewrite H. exact I. Qed.

  Lemma maybe_replace_rename o t : rx_blind o ->
    maybe_replace (rename_opt o) (rn t) = option_map rn (maybe_replace o t).
  Proof.
    unfold rx_blind, maybe_replace, replace_matches. cbn [rename_opt o_btype o_replace o_regex o_delim o_compress].
    intros Hx. destruct (o_replace o) as [nd|]; cbn [option_map]; [destruct (o_regex o) as [x|]|].
    (* the matches to replace: the regex's (under -p the text stays as it is), else the delimiter's *)
    - destruct (o_compress o); [destruct (o_btype o); reflexivity|]. rewrite (proj2 Hx).
      destruct (rx_normal x t); [rewrite replace_matches_from_rename|]; destruct (o_btype o); reflexivity.
    - rewrite (lit_matches_rename f f_inj), replace_matches_from_rename. destruct (o_btype o); reflexivity.
    - destruct (o_btype o); reflexivity.
  Qed.

  Lemma out_piece_rename o line fields b : rx_blind o -> o_json o = false ->
    out_piece (rename_opt o) (rn line) fields (rename_bound b) = rename_rres (out_piece o line fields b).
  Proof.
    intros Hx Hj. unfold out_piece. rewrite try_into_range_rename.
    destruct (try_into_range b (length fields)) as [[s e]|].
    - destruct (range_start fields s) as [a|]; [|reflexivity].
      destruct (range_end fields (e - 1)) as [z|]; [|reflexivity].
      rewrite map_length. destruct (Nat.leb a z && Nat.leb z (length line)); [|reflexivity].
      rewrite slice_rename, (maybe_replace_rename o _ Hx).
      destruct (maybe_replace o (slice line a z)) as [t|]; cbn [option_map]; [|reflexivity].
      rewrite !emit_part_plain by exact Hj. reflexivity.
    - change (o_fallback (rename_opt o)) with (option_map rn (o_fallback o)). rewrite fallback_for_rename.
      destruct (fallback_for b (o_fallback o)) as [fb|]; cbn [option_map]; [|reflexivity].
      rewrite !emit_part_plain by exact Hj. reflexivity.
  Qed.

  Lemma out_sep_rename o b : out_sep (rename_opt o) (rename_bound b) = rn (out_sep o b).
  Proof.
    unfold out_sep, out_rep. cbn [rename_opt o_join o_replace o_delim rename_bound blast].
    destruct (o_join o && negb (blast b)); [destruct (o_replace o)|]; reflexivity.
  Qed.

  Lemma out_loop_rename o line fields : rx_blind o -> o_json o = false -> forall bs,
    out_loop (rename_opt o) (rn line) fields (map rename_item bs) = rename_rres (out_loop o line fields bs).
  Proof.
    intros Hx Hj. induction bs as [|[b|t] bs IH]; cbn [map rename_item]; [reflexivity| |].
    - rewrite !out_loop_cons_bound, (out_piece_rename o line fields b Hx Hj), out_sep_rename, IH.
      destruct (out_piece o line fields b); try reflexivity.
      destruct (out_loop o line fields bs); cbn [rename_rres]; rewrite ?map_app; reflexivity.
    - cbn [out_loop]. rewrite IH. destruct (out_loop o line fields bs); cbn [rename_rres]; rewrite ?map_app; reflexivity.
  Qed.

  Lemma rn_nil_iff (l : bytes) : rn l = [] <-> l = [].
  Proof. destruct l; split; intros H; try reflexivity; discriminate. Qed.

  Lemma items_if_rename (g : option ublist) (c : bool) its :
    (if c then match option_map rename_ublist g with Some l => Some (items l) | None => None end
     else Some (map rename_item its))
    = option_map (map rename_item) (if c then match g with Some l => Some (items l) | None => None end else Some its).
  Proof. destruct c, g; reflexivity. Qed.

  Lemma cut_tail_rename o line fields : rx_blind o -> o_json o = false ->
    cut_tail (rename_opt o) (rn line) fields = option_map rename_rres (cut_tail o line fields).
  Proof.
    intros Hx Hj. unfold cut_tail.
    cbn [rename_opt o_only_delimited o_complement o_bounds rename_ublist items o_json o_btype o_replace o_eol].
    rewrite Hj, option_map_case.
    destruct (o_only_delimited o && Nat.eqb (length fields) 1); [reflexivity|].
    rewrite complement_list_rename, items_if_rename.
    destruct (if o_complement o then _ else _) as [bs1|]; cbn [option_map]; [|reflexivity].
    rewrite needs_unpack_rename, unpack_list_rename, items_if_rename.
    destruct (if _ && needs_unpack bs1 then _ else _) as [bs2|]; cbn [option_map]; [|reflexivity].
    rewrite (out_loop_rename o line fields Hx Hj).
    destruct (out_loop o line fields bs2); cbn [rename_rres option_map app]; rewrite ?map_app; reflexivity.
  Qed.

  Lemma cut_guard_rename o : cut_guard (rename_opt o) = cut_guard o.
  Proof. unfold cut_guard, is_re. cbn [rename_opt o_regex o_replace o_compress o_join]. rewrite option_map_case. reflexivity. Qed.

  Lemma cut_trim_rename o l : rx_blind o -> cut_trim (rename_opt o) (rn l) = option_map rn (cut_trim o l).
  Proof.
    unfold rx_blind, cut_trim. cbn [rename_opt o_trim o_regex o_delim]. intros Hx.
    destruct (o_trim o) as [k|]; [|reflexivity]. destruct (o_regex o) as [x|].
    - rewrite (proj1 Hx). destruct (rx_greedy x l); [cbn [option_map]; rewrite trim_matches_rename|]; reflexivity.
    - rewrite (trim_rename f f_inj). reflexivity.
  Qed.

  Lemma cut_compress_rename o l : rx_blind o ->
    cut_compress (rename_opt o) (rn l)
    = option_map (fun '(line, delim, re) => (rn line, rn delim, re)) (cut_compress o l).
  Proof.
    unfold rx_blind, cut_compress, is_re. cbn [rename_opt o_compress o_btype o_regex o_replace o_delim]. intros Hx.
    destruct (o_compress o && _); [|reflexivity]. destruct (o_regex o) as [x|].
    - rewrite (proj1 Hx). destruct (rx_greedy x l); [|reflexivity]. destruct (o_replace o); [|reflexivity].
      unfold replace_matches. cbn [option_map]. rewrite replace_matches_from_rename. reflexivity.
    - rewrite (compress_rename f f_inj). reflexivity.
  Qed.

  Lemma cut_split_rename o line delim re : rx_blind o ->
    cut_split (rename_opt o) (rn line) (rn delim) re = cut_split o line delim re.
  Proof.
    unfold rx_blind, cut_split. cbn [rename_opt o_regex o_greedy]. intros Hx. destruct re.
    - destruct (o_regex o) as [x|]; [|reflexivity]. rewrite (proj1 Hx), (proj2 Hx). reflexivity.
    - rewrite (lit_matches_rename f f_inj). reflexivity.
  Qed.

  Theorem cut_str_rename o line0 : rx_blind o -> o_json o = false ->
    cut_str (rename_opt o) (rn line0) = option_map rename_rres (cut_str o line0).
  Proof.
    intros Hx Hj. rewrite !cut_str_stages, cut_guard_rename, (cut_trim_rename o _ Hx).
    destruct (cut_guard o); [reflexivity|].
    destruct (cut_trim o line0) as [[|c l1]|]; cbn [option_map map];
      [cbn [rename_opt o_only_delimited o_eol]; destruct (o_only_delimited o); reflexivity | | reflexivity].
    unfold cut_matches. rewrite <- map_cons, (cut_compress_rename o _ Hx).
    destruct (cut_compress o (c :: l1)) as [[[line delim] re]|]; cbn [option_map]; [|reflexivity].
    rewrite (cut_split_rename o line delim re Hx). destruct (cut_split o line delim re) as [ms|]; cbn [option_map]; [|reflexivity].
    change (cut_fields (rename_opt o)) with (cut_fields o).
    rewrite (fields_of_matches_rename f). apply cut_tail_rename; assumption.
  Qed.

  Lemma run_records_rename cut cut' :
    (forall r, cut' (rn r) = option_map rename_rres (cut r)) ->
    forall rs acc, run_records cut' (map rn rs) (rn acc) = option_map rename_outcome (run_records cut rs acc).
  Proof.
    intros H. induction rs as [|r rs IH]; intros acc; cbn [map run_records]; [reflexivity|].
    rewrite H. destruct (cut r) as [[o| | |]|]; cbn [option_map rename_rres]; try reflexivity.
    rewrite <- map_app. apply IH.
  Qed.

  Theorem general_path_rename o input : rx_blind o -> o_json o = false ->
    read_and_cut_str (rename_opt o) (rn input) = option_map rename_outcome (read_and_cut_str o input).
  Proof.
    intros Hx Hj. unfold read_and_cut_str. change (o_eol (rename_opt o)) with (f (o_eol o)).
    rewrite (records_rename f f_inj).
    apply (run_records_rename (cut_str o) (cut_str (rename_opt o)) (fun r => cut_str_rename o r Hx Hj) _ []).
  Qed.
End Renaming.

Definition neutral (t : bytes) : Prop := Forall (fun x => x <> LF /\ x <> NUL) t.

Lemma swap_neutral t : neutral t -> map swap t = t.
Proof.
  induction 1 as [|x t [A B] Ht IH]; [reflexivity|]. cbn [map]. rewrite IH. f_equal.
  destruct (swap_cases x) as [[E _]|[[E _]|[_ [_ E]]]]; [contradiction | contradiction | exact E].
Qed.

Definition neutral_opt (t : option bytes) : Prop := match t with Some x => neutral x | None => True end.

Definition neutral_item (x : bof) : Prop :=
  match x with Bound b => neutral_opt (bfb b) | Filler t => neutral t end.

(** option texts (delimiter, replacement, fallbacks, format text) that hold neither LF nor NUL *)
Definition neutral_texts (o : opt) : Prop :=
  neutral (o_delim o) /\ neutral_opt (o_replace o) /\ neutral_opt (o_fallback o)
  /\ Forall neutral_item (items (o_bounds o)).

Definition with_eol (e : byte) (o : opt) : opt :=
  mkOpt (o_delim o) e (o_bounds o) (o_btype o) (o_only_delimited o) (o_greedy o) (o_compress o)
        (o_replace o) (o_trim o) (o_complement o) (o_join o) (o_json o) (o_fixed_memory o) (o_fallback o) (o_regex o).

Lemma option_map_neutral t : neutral_opt t -> option_map (map swap) t = t.
Proof. destruct t; cbn; [intros H; rewrite (swap_neutral _ H); reflexivity | reflexivity]. Qed.

Lemma rename_neutral_items its : Forall neutral_item its -> map (rename_item swap) its = its.
Proof.
  induction 1 as [|x its Hx _ IH]; [reflexivity|]. cbn [map]. rewrite IH. f_equal.
  destruct x as [b|t]; cbn [rename_item neutral_item] in *.
  - unfold rename_bound. rewrite (option_map_neutral _ Hx). destruct b; reflexivity.
  - rewrite (swap_neutral _ Hx). reflexivity.
Qed.

Lemma rename_neutral_opt o : neutral_texts o -> rename_opt swap o = with_eol (swap (o_eol o)) o.
Proof.
  intros [Hd [Hr [Hf Hb]]]. unfold rename_opt, with_eol, rename_ublist.
  rewrite (swap_neutral _ Hd), (option_map_neutral _ Hr), (option_map_neutral _ Hf), (rename_neutral_items _ Hb).
  destruct (o_bounds o); reflexivity.
Qed.
