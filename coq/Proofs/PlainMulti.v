(** The general path on one record for ANY non-empty literal delimiter (multi-byte,
    self-overlapping), in terms of the record's fields [split d line], with every combination
    of -t, -p, -g, -s, -m, -j, -r. *)
From TucModel Require Import Base.Bytes Base.ListX Model.Bounds Model.Scan Model.Opt Model.CutStr
     Spec.Fields Proofs.C06 Proofs.ScanSplit Proofs.C12 Proofs.Greedy Proofs.C01More Proofs.Plain.

Fixpoint mpos (line d : bytes) (start : nat) (ms : list mtch) : Prop :=
  match ms with
  | [] => start <= length line
  | m :: ms' => start <= fst m /\ snd m = fst m + length d /\ slice line (fst m) (snd m) = d
                /\ mpos line d (snd m) ms'
  end.

Lemma mpos_iff line d : forall ms start,
  mpos line d start ms <-> wf_ms start ms (length line) /\ Forall (occurrence line d) ms.
Proof.
  induction ms as [|m ms IH]; intros start; cbn [mpos wf_ms].
  - split; [intros H; split; [exact H | constructor] | intros [H _]; exact H].
  - rewrite IH. split.
    + intros [A [B [C [D1 D2]]]]. split; [split; [exact A | split; [lia | exact D1]]|].
      constructor; [split; assumption | exact D2].
    + intros [[A [_ D1]] Ho]. destruct (Forall_inv Ho) as [B C].
      repeat split; try assumption. exact (Forall_inv_tail Ho).
Qed.

Lemma mpos_end line d : forall ms start, mpos line d start ms -> start <= length line.
Proof. intros ms start H. apply mpos_iff in H. exact (wf_ms_le _ _ _ (proj1 H)). Qed.

Lemma range_slice_gen line d : forall ms start s e a z,
  mpos line d start ms -> s < e ->
  nth_error (gaps_from start ms (length line)) s = Some a ->
  nth_error (gaps_from start ms (length line)) (e - 1) = Some z ->
  slice line (fst a) (snd z)
  = intercalate d (firstn (e - s) (skipn s (pieces line (gaps_from start ms (length line))))).
Proof.
  intros ms start s e a z Hd Hse Ha Hz. apply mpos_iff in Hd. destruct Hd as [Hw Ho].
  rewrite (range_slice_occ line d ms start s (e - 1) a z Hw Ho ltac:(lia) Ha Hz).
  replace (e - 1 + 1 - s) with (e - s) by lia. reflexivity.
Qed.

Lemma replace_joined_gen d rep fs : d <> [] -> fs <> [] -> leftmost_fields d fs ->
  replace_matches (intercalate d fs) (lit_matches d (intercalate d fs)) rep = intercalate rep fs.
Proof.
  intros Hd _ Hf. rewrite (replace_lit_matches _ _ _ Hd), (split_unique d Hd fs _ (conj eq_refl Hf)). reflexivity.
Qed.

Definition rep_of' (o : opt) : bytes := match o_replace o with Some nd => nd | None => o_delim o end.

Lemma rep_of'_out_rep o : rep_of' o = out_rep o.
Proof. reflexivity. Qed.

Definition plain_opts' (o : opt) : Prop :=
  o_delim o <> [] /\ o_regex o = None /\ o_json o = false /\ btype_eqb (o_btype o) BChars = false
  /\ o_complement o = false /\ o_greedy o = false /\ o_compress o = false.

Theorem general_plain_record_gen o line :
  plain_opts' o -> o_trim o = None -> o_only_delimited o = false ->
  line <> [] -> Forall item_nz (items (o_bounds o)) ->
  cut_str o line
  = Some (match spec_items (split (o_delim o) line) (o_fallback o) (o_join o) (rep_of' o) (items (o_bounds o)) with
          | Some x => ROk (x ++ [o_eol o])
          | None => RErr
          end).
Proof.
  intros [Hd [Hx [Hj [Hb [Hc [Hg Hp]]]]]] Ht Hs Hl Hnz. rewrite rep_of'_out_rep.
  exact (plain_record o line (conj Hd (conj Hx (conj Hj Hb))) Hc Hg Hp Ht Hs Hl Hnz).
Qed.

Definition effective_bounds (o : opt) (n : nat) : option (list bof) :=
  if o_complement o then option_map items (complement_list (items (o_bounds o)) n)
  else Some (items (o_bounds o)).

Lemma effective_bounds_nz o n bs :
  Forall item_nz (items (o_bounds o)) -> effective_bounds o n = Some bs -> Forall item_nz bs.
Proof.
  intros Hnz. unfold effective_bounds. destruct (o_complement o); [|intros H; injection H as <-; exact Hnz].
  destruct (complement_list (items (o_bounds o)) n) as [u|] eqn:E; [|discriminate].
  intros H; injection H as <-. exact (proj1 (complement_list_ok _ _ _ Hnz E)).
Qed.

Lemma finish_record_select o line ks ms :
  loop_opts o -> line <> [] ->
  Forall2 (fun k g => nth_error (gaps_from 0 (lit_matches (o_delim o) line) (length line)) k = Some g)
          ks (gaps_from 0 ms (length line)) ->
  increasing ks -> Forall item_nz (items (o_bounds o)) ->
  finish_record o line (fields_of_matches ms line)
  = if o_only_delimited o && Nat.eqb (length ks) 1 then ROk []
    else match effective_bounds o (length ks) with
         | None => RErr
         | Some bs =>
             match spec_items_g (split (o_delim o) line) ks (o_fallback o) (o_join o) (rep_of' o) bs with
             | Some x => ROk (x ++ [o_eol o])
             | None => RErr
             end
         end.
Proof.
  intros Hlo Hl HT Hks Hnz. rewrite (fields_of_matches_ne _ line Hl). unfold finish_record.
  rewrite <- (Forall2_len _ _ _ HT). destruct (o_only_delimited o && _); [reflexivity|].
  change (if o_complement o then _ else _) with (effective_bounds o (length ks)).
  destruct (effective_bounds o (length ks)) as [bs|] eqn:Eb; [|reflexivity].
  rewrite rep_of'_out_rep, (out_loop_select o line ks _ bs Hlo HT Hks (effective_bounds_nz o _ bs Hnz Eb)).
  destruct (spec_items_g _ _ _ _ _ _); reflexivity.
Qed.

(** C01 as a function of the record, for every non-empty literal delimiter and every
    combination of -t, -p, -g, -s, -m, -j, -r, format text and fallbacks: the fields counted are
    at the positions [ks] among the fields [ps] of the (trimmed, under -p squeezed) record -
    all of them, or under -g the first field, the non-empty ones and the last ([kept_v]); a
    bound that resolves to the counted fields s+1..e prints every field of the record from the
    first of them to the last of them, joined by the (replacement) delimiter *)
Theorem general_record o line0 :
  o_delim o <> [] -> o_regex o = None -> o_json o = false -> o_btype o = BFields ->
  Forall item_nz (items (o_bounds o)) ->
  cut_str o line0
  = Some (let d := o_delim o in
          let line1 := match o_trim o with Some k => trim_lit k d line0 | None => line0 end in
          match line1 with
          | [] => ROk (if o_only_delimited o then [] else [o_eol o])
          | _ =>
              let ps := if o_compress o then squeeze (split d line1) else split d line1 in
              let ks := if o_greedy o then kept_v ps else seq 0 (length ps) in
              if o_only_delimited o && Nat.eqb (length ks) 1 then ROk []
              else match effective_bounds o (length ks) with
                   | None => RErr
                   | Some bs =>
                       match spec_items_g ps ks (o_fallback o) (o_join o) (rep_of' o) bs with
                       | Some x => ROk (x ++ [o_eol o])
                       | None => RErr
                       end
                   end
          end).
Proof.
  intros Hd Hx Hj Hb Hnz. rewrite (cut_str_literal o line0 Hx Hb Hj). cbv zeta. f_equal.
  destruct (match o_trim o with Some k => trim_lit k (o_delim o) line0 | None => line0 end) as [|c l1];
    [reflexivity|].
  assert (Hlo : loop_opts o) by (repeat split; try assumption; rewrite Hb; reflexivity).
  unfold lit_stage. cbn [fst snd].
  (* under -p the record that is cut is the compressed one, whose fields are the squeezed ones *)
  set (line := if o_compress o then compress_delimiter (o_delim o) (c :: l1) else c :: l1).
  assert (Hl : line <> []).
  { subst line. destruct (o_compress o); [apply compress_nonempty|]; (assumption || discriminate). }
  assert (Hps : (if o_compress o then squeeze (split (o_delim o) (c :: l1)) else split (o_delim o) (c :: l1))
                = split (o_delim o) line).
  { subst line. destruct (o_compress o); [symmetry; apply compress_then_split|]; (assumption || discriminate || reflexivity). }
  rewrite Hps. destruct (o_greedy o).
  - exact (finish_record_select o line _ _ Hlo Hl (greedy_table _ line Hd Hl) (kept_v_increasing _) Hnz).
  - rewrite <- (plain_table_length _ line Hd).
    exact (finish_record_select o line _ _ Hlo Hl (select_all _) (seq_increasing 0 _) Hnz).
Qed.

Definition value_opts (o : opt) : Prop :=
  o_delim o <> [] /\ o_regex o = None /\ o_json o = false /\ o_btype o = BFields /\ o_greedy o = false.

Theorem general_record_value o line0 :
  value_opts o -> Forall item_nz (items (o_bounds o)) ->
  cut_str o line0
  = Some (let line1 := match o_trim o with Some k => trim_lit k (o_delim o) line0 | None => line0 end in
          match line1 with
          | [] => ROk (if o_only_delimited o then [] else [o_eol o])
          | _ =>
              let fs := if o_compress o then squeeze (split (o_delim o) line1) else split (o_delim o) line1 in
              if o_only_delimited o && Nat.eqb (length fs) 1 then ROk []
              else match effective_bounds o (length fs) with
                   | None => RErr
                   | Some bs =>
                       match spec_items fs (o_fallback o) (o_join o) (rep_of' o) bs with
                       | Some x => ROk (x ++ [o_eol o])
                       | None => RErr
                       end
                   end
          end).
Proof.
  intros [Hd [Hx [Hj [Hb Hg]]]] Hnz. rewrite (general_record o line0 Hd Hx Hj Hb Hnz), Hg. cbv zeta. f_equal.
  destruct (match o_trim o with Some k => trim_lit k (o_delim o) line0 | None => line0 end); [reflexivity|].
  rewrite seq_length. destruct (o_only_delimited o && _); [reflexivity|].
  destruct (effective_bounds o _) as [bs|] eqn:Eb; [|reflexivity].
  rewrite (spec_items_seq _ _ _ _ _ (effective_bounds_nz o _ bs Hnz Eb)). reflexivity.
Qed.

Definition compress_opts (o : opt) : Prop :=
  o_delim o <> [] /\ o_regex o = None /\ o_json o = false /\ o_btype o = BFields
  /\ o_complement o = false /\ o_greedy o = false /\ o_compress o = true.

(** under -p alone a bound counts and prints the squeezed fields *)
Theorem general_compress_record o line :
  compress_opts o -> o_trim o = None -> o_only_delimited o = false ->
  line <> [] -> Forall item_nz (items (o_bounds o)) ->
  cut_str o line
  = Some (match spec_items (squeeze (split (o_delim o) line)) (o_fallback o) (o_join o) (rep_of' o)
                           (items (o_bounds o)) with
          | Some x => ROk (x ++ [o_eol o])
          | None => RErr
          end).
Proof.
  intros [Hd [Hx [Hj [Hb [Hc [Hg Hp]]]]]] Ht Hs Hl Hnz.
  rewrite (general_record_value o line (conj Hd (conj Hx (conj Hj (conj Hb Hg)))) Hnz), Ht, Hs, Hp.
  unfold effective_bounds. rewrite Hc. destruct line; [contradiction | reflexivity].
Qed.
