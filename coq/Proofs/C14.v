(** C14: over the I/O envelope model, what reaches stdout is always a prefix of
    the fault-free output and a successful status means everything was delivered; over the
    record iteration, the records before a given point are delivered whatever follows. *)
From TucModel Require Import Base.Bytes Model.CutStr Model.IO Proofs.C10.

Definition is_prefix (a b : bytes) : Prop := exists t, b = a ++ t.

Lemma accepted_prefix out wk : is_prefix (accepted out wk) out.
Proof.
  destruct wk as [k|]; [exists (skipn k out); symmetry; apply firstn_skipn | exists []; symmetry; apply app_nil_r].
Qed.

Theorem delivered_is_prefix r read_ok wk :
  match r with
  | Done out | Fail out => is_prefix (snd (envelope r read_ok wk)) out
  | _ => snd (envelope r read_ok wk) = []
  end.
Proof. destruct r as [out|pre| |]; cbn [envelope snd]; try reflexivity; apply accepted_prefix. Qed.

Theorem success_means_everything_delivered r read_ok wk :
  fst (envelope r read_ok wk) = 0 ->
  exists out, r = Done out /\ read_ok = true /\ snd (envelope r read_ok wk) = out.
Proof.
  destruct r as [out|pre| |]; cbn [envelope fst snd]; try discriminate.
  destruct (read_ok && fits out wk) eqn:E; [|discriminate]. intros _.
  apply andb_true_iff in E. destruct E as [E1 E2]. exists out. split; [reflexivity|]. split; [exact E1|].
  unfold accepted, fits in *. destruct wk as [k|]; [|reflexivity].
  apply Nat.leb_le in E2. apply firstn_all2, E2.
Qed.

Theorem run_records_split_done cut eol A B a :
  run_records cut (records eol (A ++ [eol])) [] = Some (Done a) ->
  match run_records cut (records eol ((A ++ [eol]) ++ B)) [] with
  | Some (Done out) | Some (Fail out) => is_prefix a out
  | _ => True
  end.
Proof.
  intros H. rewrite run_records_split, H. unfold seq_outcome.
  destruct (run_records cut (records eol B) []) as [[b|b| |]|]; try exact I; exists b; reflexivity.
Qed.
