(** C09, one whole record of the general path (literal delimiter, field mode): rewriting
    negative indexes against the number of fields of that record changes nothing, also under
    --complement. *)
From TucModel Require Import Base.Bytes Base.ListX Model.Bounds Model.Scan Model.Opt Model.CutStr
     Proofs.C09 Proofs.C01More.
Local Open Scope Z_scope.

Lemma rewrites_refl n b : bound_rewrites n b b.
Proof. repeat split; constructor. Qed.

Lemma items_rewrite_refl n l : items_rewrite n l l.
Proof. induction l as [|[b|f] l IH]; constructor; try assumption. apply rewrites_refl. Qed.

Lemma items_rewrite_app n a a' c c' :
  items_rewrite n a a' -> items_rewrite n c c' -> items_rewrite n (a ++ c) (a' ++ c').
Proof.
  induction 1 as [|f l l' _ IH|b b' l l' Hb _ IH]; intros H2; cbn [app]; [exact H2 | |]; constructor; auto.
Qed.

Lemma complement_items_rw n l l' :
  items_rewrite (Z.of_nat n) l l' -> items_rewrite (Z.of_nat n) (complement_items l n) (complement_items l' n).
Proof.
  unfold complement_items. induction 1 as [|f l l' _ IH|b b' l l' Hb _ IH]; cbn [flat_map].
  - constructor.
  - constructor. exact IH.
  - apply items_rewrite_app; [|exact IH].
    rewrite (C09_complement n b b' Hb). destruct (complement_bound b n) as [cs|].
    + apply items_rewrite_refl.
    + constructor; [exact Hb | constructor].
Qed.

Lemma bounds_only_rw_len n l l' : items_rewrite n l l' -> length (bounds_only l') = length (bounds_only l).
Proof.
  induction 1 as [|f l l' _ IH|b b' l l' Hb _ IH]; [reflexivity| |].
  - exact IH.
  - cbn [bounds_only flat_map app length]. f_equal. exact IH.
Qed.

Lemma mark_last_rw n l l' : items_rewrite n l l' -> items_rewrite n (mark_last l) (mark_last l').
Proof.
  induction 1 as [|f l l' _ IH|b b' l l' Hb Hl IH]; cbn [mark_last].
  - constructor.
  - constructor. exact IH.
  - pose proof (bounds_only_rw_len n l l' Hl) as E.
    destruct (bounds_only l) as [|x xs]; destruct (bounds_only l') as [|y ys]; try discriminate.
    + constructor; [|exact Hl]. destruct Hb as [A [B [C D]]]. repeat split; assumption.
    + constructor; assumption.
Qed.

(** [complement_items] works item by item on equal ranges ([C09_complement]), and [mark_last]
    flags the same positions in both lists since they hold as many bounds *)
Lemma complement_list_rw n l l' :
  items_rewrite (Z.of_nat n) l l' ->
  match complement_list l n, complement_list l' n with
  | Some u, Some u' => items_rewrite (Z.of_nat n) (items u) (items u')
  | None, None => True
  | _, _ => False
  end.
Proof.
  intros H. unfold complement_list, from_vec.
  pose proof (complement_items_rw n l l' H) as Hc.
  pose proof (bounds_only_rw_len _ _ _ Hc) as E.
  destruct (bounds_only (complement_items l n)) as [|x xs]; destruct (bounds_only (complement_items l' n)) as [|y ys];
    try discriminate; [exact I|]. apply mark_last_rw, Hc.
Qed.

Definition with_bounds (u : ublist) (o : opt) : opt :=
  mkOpt (o_delim o) (o_eol o) u (o_btype o) (o_only_delimited o) (o_greedy o) (o_compress o) (o_replace o)
        (o_trim o) (o_complement o) (o_join o) (o_json o) (o_fixed_memory o) (o_fallback o) (o_regex o).

Lemma out_loop_with_bounds u o line fields bs : out_loop (with_bounds u o) line fields bs = out_loop o line fields bs.
Proof. apply out_loop_cong, Forall2_diag, same_output_refl; reflexivity. Qed.

Theorem finish_record_rw o u' line fields :
  items_rewrite (Z.of_nat (length fields)) (items (o_bounds o)) (items u') ->
  finish_record (with_bounds u' o) line fields = finish_record o line fields.
Proof.
  intros H. unfold finish_record. cbn [with_bounds o_only_delimited o_complement o_bounds o_eol].
  destruct (o_complement o).
  - pose proof (complement_list_rw (length fields) _ _ H) as Hc.
    destruct (complement_list (items (o_bounds o)) (length fields)) as [u|];
      destruct (complement_list (items u') (length fields)) as [v|]; try contradiction; [|reflexivity].
    rewrite out_loop_with_bounds, (C09_general o line fields _ _ Hc). reflexivity.
  - rewrite out_loop_with_bounds, (C09_general o line fields _ _ H). reflexivity.
Qed.

Theorem C09_record o u' line0 :
  o_regex o = None -> o_btype o = BFields -> o_json o = false ->
  (forall line1, line1 <> [] ->
     items_rewrite (Z.of_nat (length (snd (lit_stage o line1)))) (items (o_bounds o)) (items u')) ->
  cut_str (with_bounds u' o) line0 = cut_str o line0.
Proof.
  intros Hx Hb Hj H.
  rewrite (cut_str_literal (with_bounds u' o) line0 Hx Hb Hj), (cut_str_literal o line0 Hx Hb Hj).
  cbn [with_bounds o_trim o_delim o_only_delimited o_eol].
  destruct (match o_trim o with Some k => trim_lit k (o_delim o) line0 | None => line0 end) as [|c l1] eqn:E; [reflexivity|].
  f_equal. change (lit_stage (with_bounds u' o) (c :: l1)) with (lit_stage o (c :: l1)).
  apply finish_record_rw. apply H. discriminate.
Qed.
