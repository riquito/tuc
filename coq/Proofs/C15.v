(** C15: the complement of a resolved bound is the parts before it followed by the parts after it *)
From TucModel Require Import Base.Bytes Base.ListX Model.Bounds Proofs.BoundsFacts.
Local Open Scope Z_scope.

Lemma of_range_resolves a z n : (a < z <= n)%nat -> try_into_range (of_range a z) n = Some (a, z).
Proof.
  intros H. rewrite (try_into_range_pos _ (Z.of_nat a + 1) (Z.of_nat z)) by (reflexivity || lia).
  rewrite !(proj2 (Z.leb_le _ _)) by lia. cbn [andb]. f_equal. f_equal; lia.
Qed.

(** the specification: the non-empty ones among [0,s) and [e,n), in that order *)
Definition complement_spec (n s e : nat) : list (nat * nat) :=
  (if Nat.ltb 0 s then [(0%nat, s)] else []) ++ (if Nat.ltb e n then [(e, n)] else []).

Lemma complement_std_range_spec n s e : (s < e <= n)%nat ->
  complement_std_range n s e = complement_spec n s e.
Proof.
  intros H. unfold complement_std_range, complement_spec.
  (* as e <= n, the test e < n of the specification is the test e <> n of the code *)
  assert (E : Nat.ltb e n = negb (Nat.eqb e n)).
  { destruct (Nat.eqb_spec e n) as [->|]; [apply Nat.ltb_irrefl | apply Nat.ltb_lt; lia]. }
  rewrite E. destruct s, (Nat.eqb e n); reflexivity.
Qed.

Theorem C15_core b n s e :
  bound_nz b -> try_into_range b n = Some (s, e) ->
  exists cs, complement_bound b n = Some cs
             /\ map (fun c => try_into_range c n) cs = map Some (complement_spec n s e)
             /\ Forall (fun c => bfb c = None /\ blast c = false) cs.
Proof.
  intros Hnz E. pose proof (try_into_range_some b n s e Hnz E) as [_ [_ [_ Hse]]].
  unfold complement_bound. rewrite E. eexists. split; [reflexivity|].
  rewrite (complement_std_range_spec n s e Hse). unfold complement_spec.
  destruct (Nat.ltb_spec 0 s) as [Hs|Hs]; destruct (Nat.ltb_spec e n) as [He|He];
    cbn [app map fst snd]; rewrite ?of_range_resolves by lia;
    (split; [reflexivity | repeat constructor]).
Qed.

Theorem C15_selects {A} (parts : list A) s e : (s < e <= length parts)%nat ->
  concat (map (fun r => slice parts (fst r) (snd r)) (complement_spec (length parts) s e))
  = firstn s parts ++ skipn e parts.
Proof.
  intros H. unfold complement_spec. rewrite map_app, concat_app. f_equal.
  - destruct s; [reflexivity|]. cbn [Nat.ltb Nat.leb map concat fst snd].
    rewrite app_nil_r. unfold slice. rewrite Nat.sub_0_r. reflexivity.
  - destruct (Nat.ltb_spec e (length parts)); cbn [map concat fst snd];
      [rewrite app_nil_r; apply slice_to_end | rewrite skipn_all2 by lia; reflexivity].
Qed.

(** '2' behaves as '1,3:' *)
Example C15_example :
  complement_bound (mkB (SSome 2) (SSome 2) false None) 5
  = Some [of_range 0 1; of_range 2 5].
Proof. reflexivity. Qed.

Lemma complement_items_all l n :
  Forall (fun x => match x with Bound b => try_into_range b n = Some (0%nat, n) | Filler _ => True end) l ->
  bounds_only (complement_items l n) = [].
Proof.
  induction l as [|x l IH]; intros H; [reflexivity|].
  inversion H as [|? ? Hx Hl]; subst. specialize (IH Hl).
  destruct x as [b|f]; cbn [complement_items flat_map].
  - unfold complement_bound. rewrite Hx. unfold complement_std_range. rewrite Nat.eqb_refl.
    cbn [map app]. exact IH.
  - cbn [app bounds_only flat_map]. exact IH.
Qed.
