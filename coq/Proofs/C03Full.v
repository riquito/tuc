(** C03: the fixed-memory path prints, for every record in which each requested range is
    wholly present or wholly absent, exactly what the general path prints.
    The scan of a record's bytes is read as a function of its fields; from field [k] on that
    function prints a remainder specified in terms of the fields, which from field 1 is the general
    path's output. *)
From TucModel Require Import Base.Bytes Model.Bounds Model.BoundsParse Model.Opt
     Model.CutBytes Model.CutStr Model.Stream Spec.Fields Proofs.BoundsFacts Proofs.C06
     Proofs.ScanSplit Proofs.C03 Proofs.C04 Proofs.C04Parse Proofs.C05 Proofs.C18 Proofs.Plain.
Local Open Scope Z_scope.

Inductive fres := FDone (out : bytes) | FErr.

Definition fprepend (p : bytes) (r : fres) : fres :=
  match r with FDone x => FDone (p ++ x) | FErr => FErr end.

Definition finish (so : sopt) (its : list bof) (n : Z) : fres :=
  match pff so its n with Some t => FDone (t ++ [s_eol so]) | None => FErr end.

(** the scan of one record read at the level of fields: each field reaches [print_bof] whole and
    complete ([false true]) *)
Fixpoint stream_fields (so : sopt) (its : list bof) (curr : Z) (fs : list bytes) : fres :=
  match fs with
  | [] => FErr
  | f :: fs' =>
      let ob := print_bof so its curr f false true in
      match fs' with
      | [] => fprepend (fst ob) (finish so (snd ob) curr)
      | _ =>
          if side_eqb (SSome curr) (s_lif so) then fprepend (fst ob) (finish so (snd ob) curr)
          else fprepend (fst ob) (stream_fields so (snd ob) (curr + 1) fs')
      end
  end.

Definition done_res (so : sopt) (x : option bytes) : fres :=
  match x with Some t => FDone (t ++ [s_eol so]) | None => FErr end.

Lemma fprepend_done so p x : fprepend p (done_res so x) = done_res so (option_map (app p) x).
Proof. destruct x; cbn [option_map done_res fprepend]; [rewrite <- app_assoc|]; reflexivity. Qed.

Lemma fprepend_app p q r : fprepend p (fprepend q r) = fprepend (p ++ q) r.
Proof. destruct r; cbn [fprepend]; [rewrite app_assoc|]; reflexivity. Qed.

Lemma option_map_app (p q : bytes) x : option_map (app p) (option_map (app q) x) = option_map (app (p ++ q)) x.
Proof. destruct x; cbn [option_map]; [rewrite app_assoc|]; reflexivity. Qed.

Lemma stream_fields_cons so its k f fs :
  stream_fields so its k (f :: fs)
  = fprepend (fst (print_bof so its k f false true))
      (if match fs with [] => true | _ => side_eqb (SSome k) (s_lif so) end
       then done_res so (pff so (snd (print_bof so its k f false true)) k)
       else stream_fields so (snd (print_bof so its k f false true)) (k + 1) fs).
Proof. destruct fs; [reflexivity|]. cbn [stream_fields]. destruct (side_eqb (SSome k) (s_lif so)); reflexivity. Qed.

Definition bfree (c : byte) (f : bytes) : Prop := Forall (fun x => N.eqb x c = false) f.

Lemma scan_field so its curr trunc : forall f piece tail out,
  bfree (s_delim so) f -> bfree (s_eol so) f ->
  scan_chunk so its curr trunc piece (f ++ tail) out
  = scan_chunk so its curr trunc (rev f ++ piece) tail out.
Proof.
  induction f as [|x f IH]; intros piece tail out Hd He; [reflexivity|].
  cbn [app scan_chunk]. rewrite (Forall_inv He), (Forall_inv Hd), IH by (eapply Forall_inv_tail; eassumption).
  cbn [rev]. rewrite <- app_assoc. reflexivity.
Qed.

Lemma after_eol_none eol l : bfree eol l -> after_eol eol l = None.
Proof.
  induction l as [|x l IH]; intros H; [reflexivity|].
  cbn [after_eol]. rewrite (Forall_inv H). apply IH, (Forall_inv_tail H).
Qed.

Lemma after_eol_first eol l rest : bfree eol l -> after_eol eol (l ++ eol :: rest) = Some rest.
Proof. intros H. rewrite after_eol_app, (after_eol_none _ _ H). cbn [after_eol]. rewrite N.eqb_refl. reflexivity. Qed.

(** where text without an EOL ends the chunk, the state shows that the record is not an empty
    one, which is what the EOL that follows will ask *)
Lemma scan_no_eol so : forall c its curr trunc p out,
  bfree (s_eol so) c ->
  match scan_chunk so its curr trunc p c out with
  | RecordEnd _ _ => False
  | SkipFrom _ rest => bfree (s_eol so) rest
  | ChunkEnd _ _ curr' trunc' =>
      (* either some text of the current field is pending, or a delimiter was the last byte *)
      (c <> [] -> trunc' = true \/ curr < curr') /\ curr <= curr'
  | ScanErr => True
  end.
Proof.
  induction c as [|x c IH]; intros its curr trunc p out Hf; cbn [scan_chunk].
  - destruct p as [|y p'].
    + split; [intros H; contradiction | lia].
    + destruct (print_bof so its curr (rev (y :: p')) trunc false). split; [intros _; left; reflexivity | lia].
  - rewrite (Forall_inv Hf). apply Forall_inv_tail in Hf.
    destruct (N.eqb x (s_delim so)).
    + destruct (print_bof so its curr (rev p) trunc true) as [o its'].
      destruct (side_eqb (SSome curr) (s_lif so)).
      * destruct (pff so its' curr); [exact Hf | exact I].
      * specialize (IH its' (curr + 1) false [] (out ++ o) Hf).
        destruct (scan_chunk so its' (curr + 1) false [] c (out ++ o)) as [o2 i2 c2 t2| | |]; try exact IH.
        destruct IH as [_ I2]. split; [intros _; right; lia | lia].
    + specialize (IH its curr trunc (x :: p) out Hf).
      destruct c as [|y c'].
      * rewrite scan_chunk_nil in * by discriminate. split; [intros _; left; reflexivity | lia].
      * destruct (scan_chunk so its curr trunc (x :: p) (y :: c') out); try exact IH.
        split; [intros _; apply IH; discriminate | apply IH].
Qed.

Definition record_out (so : sopt) (r : scan_res) : option bytes :=
  match r with
  | RecordEnd out _ => Some out
  | SkipFrom out _ => Some (out ++ [s_eol so])
  | _ => None
  end.

Lemma record_terminated so r its curr out started rest cs :
  bfree (s_eol so) r -> no_adjacent_fillers its ->
  rec_chunks so (Normal its curr false) started ((r ++ s_eol so :: rest) :: cs) out
  = match record_out so (scan_chunk so its curr false [] (r ++ [s_eol so]) out) with
    | Some o => RRecord o (push_rest rest cs)
    | None => RFail
    end.
Proof.
  intros Hf Hn. rewrite rec_chunks_normal by (destruct r; discriminate). rewrite !scan_app by exact Hn.
  pose proof (scan_no_eol so r its curr false [] out Hf) as Hs.
  destruct (scan_chunk so its curr false [] r out) as [o1 i1 c1 t1|o1 rest1|o1 rest1|]; cbn [scan_then].
  - cbn [scan_chunk]. rewrite N.eqb_refl. destruct ((c1 =? 1) && negb t1 && true); [reflexivity|].
    destruct (print_bof so i1 c1 (rev []) t1 true) as [o its']. destruct (pff so its' c1); reflexivity.
  - contradiction.
  - cbn [after_scan record_out]. rewrite rec_chunks_skip_rest, after_eol_first by exact Hs. reflexivity.
  - reflexivity.
Qed.

Lemma record_unterminated so r its curr out started :
  r <> [] -> bfree (s_eol so) r -> no_adjacent_fillers its -> 1 <= curr ->
  rec_chunks so (Normal its curr false) started [r] out
  = match record_out so (scan_chunk so its curr false [] (r ++ [s_eol so]) out) with
    | Some o => RLast o
    | None => RFail
    end.
Proof.
  intros Hr Hf Hn Hc. rewrite rec_chunks_normal, scan_app by assumption.
  pose proof (scan_no_eol so r its curr false [] out Hf) as Hs.
  destruct (scan_chunk so its curr false [] r out) as [o1 i1 c1 t1|o1 rest1|o1 rest1|]; cbn [scan_then after_scan].
  - (* end of input closes the record by the rule of the EOL *)
    cbn [scan_chunk rec_chunks]. rewrite N.eqb_refl.
    replace ((c1 =? 1) && negb t1) with false.
    2:{ destruct (proj1 Hs Hr) as [->|Hlt]; [rewrite andb_false_r | rewrite (proj2 (Z.eqb_neq c1 1)) by lia]; reflexivity. }
    cbn [andb rev]. destruct (print_bof so i1 c1 [] t1 true) as [o its']. destruct (pff so its' c1); reflexivity.
  - contradiction.
  - rewrite rec_chunks_skip_rest, (after_eol_none _ _ Hs). reflexivity.
  - reflexivity.
Qed.

Theorem last_record_without_eol so r its curr out started :
  r <> [] -> bfree (s_eol so) r -> no_adjacent_fillers its -> 1 <= curr ->
  rec_chunks so (Normal its curr false) started [r] out
  = match rec_chunks so (Normal its curr false) started [r ++ [s_eol so]] out with
    | RRecord x _ => RLast x
    | other => other
    end.
Proof.
  intros Hr Hf Hn Hc. rewrite (record_unterminated so r its curr out started Hr Hf Hn Hc).
  rewrite (record_terminated so r its curr out started [] [] Hf Hn).
  destruct (record_out so (scan_chunk so its curr false [] (r ++ [s_eol so]) out)); reflexivity.
Qed.

Lemma scan_record_fields so : forall fs its curr out,
  fs <> [] -> Forall (bfree (s_delim so)) fs -> bfree (s_eol so) (intercalate [s_delim so] fs) ->
  1 <= curr -> (curr = 1 -> fs <> [[]]) ->
  record_out so (scan_chunk so its curr false [] (intercalate [s_delim so] fs ++ [s_eol so]) out)
  = match stream_fields so its curr fs with FDone x => Some (out ++ x) | FErr => None end.
Proof.
  induction fs as [|f fs IH]; intros its curr out Hne Hd He Hc Hemp; [contradiction|].
  pose proof (Forall_inv Hd) as Hd1. apply Forall_inv_tail in Hd. rewrite stream_fields_cons.
  destruct fs as [|g fs'].
  - cbn [intercalate] in *. rewrite scan_field, app_nil_r by assumption. cbn [scan_chunk]. rewrite N.eqb_refl.
    assert (Hnot : (curr =? 1) && negb false && match rev f with [] => true | _ :: _ => false end = false).
    { destruct (Z.eqb_spec curr 1) as [E|]; [|reflexivity].
      destruct f as [|x f']; [destruct (Hemp E eq_refl)|]. cbn [rev]. destruct (rev f'); reflexivity. }
    rewrite Hnot, rev_involutive.
    destruct (print_bof so its curr f false true) as [o its']. cbn [fst snd]. destruct (pff so its' curr); reflexivity.
  - (* the delimiter is not the terminator, since the record's text holds none *)
    rewrite intercalate_cons in * by discriminate. apply Forall_app in He. destruct He as [He1 He2].
    rewrite <- !app_assoc, scan_field, app_nil_r by assumption.
    cbn [app scan_chunk]. rewrite (Forall_inv He2), N.eqb_refl, rev_involutive.
    destruct (print_bof so its curr f false true) as [o its']. cbn [fst snd].
    destruct (side_eqb (SSome curr) (s_lif so)).
    + destruct (pff so its' curr); cbn [record_out fprepend done_res]; [rewrite <- !app_assoc|]; reflexivity.
    + rewrite (IH its' (curr + 1) (out ++ o) ltac:(discriminate) Hd (Forall_inv_tail He2) ltac:(lia) ltac:(lia)).
      destruct (stream_fields so its' (curr + 1) (g :: fs')); cbn [fprepend]; rewrite <- ?app_assoc; reflexivity.
Qed.

Definition left_of (b : ubound) : Z := match bl b with SSome l => l | SCont => 1 end.
Definition no_bounds (its : list bof) : Prop := bounds_only its = [].

Section Tail.
  Variable so : sopt.
  Let sd := sdelim so.

  Definition sep_b (b : ubound) : bytes := if s_join so && negb (blast b) then [sd] else [].

  (** what bound [b] contributes from field [k] on: the rest of a range already begun (each field
      after a delimiter), or the whole range joined, or the fallback when it begins after field [n] *)
  Definition piece_from (k : Z) (fs : list bytes) (b : ubound) : option bytes :=
    let n := k - 1 + Z.of_nat (length fs) in
    let l := left_of b in
    let hi := match br b with SSome r => r | SCont => n end in
    if l <=? n then
      if l <? k then Some (flat_map (fun f => sd :: f) (firstn (Z.to_nat (hi - k + 1)) fs))
      else Some (intercalate [sd] (firstn (Z.to_nat (hi - l + 1)) (skipn (Z.to_nat (l - k)) fs)))
    else fallback_for b (s_fallback so).

  (** what remains to be printed for [its] when [fs] are the fields from [k] on; only the head
      bound can have started *)
  Fixpoint tail_spec (k : Z) (fs : list bytes) (its : list bof) : option bytes :=
    match its with
    | [] => Some []
    | Filler f :: r => option_map (app f) (tail_spec k fs r)
    | Bound b :: r =>
        match piece_from k fs b with
        | None => None
        | Some p => option_map (fun t => p ++ sep_b b ++ t) (tail_spec k fs r)
        end
    end.

  (** the domain: bounds ascend after field [lo]; on [n] fields each closed range is wholly
      present or wholly absent; an open range is the last bound and is marked last *)
  Fixpoint asc (lo n : Z) (its : list bof) : Prop :=
    match its with
    | [] => True
    | Filler _ :: r => asc lo n r
    | Bound b :: r =>
        lo < left_of b /\ 0 < left_of b
        /\ match br b with
           | SSome rv => left_of b <= rv /\ (rv <= n \/ n < left_of b) /\ asc rv n r
           | SCont => blast b = true /\ no_bounds r
           end
    end.
End Tail.

Lemma matches_upto b k n : 0 < k <= n -> 0 < left_of b ->
  (match br b with SSome rv => left_of b <= rv | SCont => True end) ->
  matches b k = Some ((left_of b <=? k) && (k <=? match br b with SSome rv => rv | SCont => n end)).
Proof.
  intros Hk Hl Hr. unfold matches, left_of in *.
  destruct (bl b) as [l|]; destruct (br b) as [rv|];
    rewrite ?(opposite_sign_pos l), ?(opposite_sign_pos rv) by lia;
    rewrite ?(proj2 (Z.leb_le 1 k)), ?(proj2 (Z.leb_le k n)), ?andb_true_r by lia; reflexivity.
Qed.

Lemma tail_spec_bound so k fs b r :
  tail_spec so k fs (Bound b :: r)
  = match piece_from so k fs b with
    | Some p => option_map (app (p ++ sep_b so b)) (tail_spec so k fs r)
    | None => None
    end.
Proof.
  cbn [tail_spec]. destruct (piece_from so k fs b); [|reflexivity].
  destruct (tail_spec so k fs r); cbn [option_map]; [rewrite app_assoc|]; reflexivity.
Qed.

Lemma stream_fields_filler so f b r k fs :
  stream_fields so (Filler f :: Bound b :: r) k fs = fprepend f (stream_fields so (Bound b :: r) k fs).
Proof.
  destruct fs as [|g fs]; [reflexivity|].
  rewrite !stream_fields_cons, print_bof_filler by discriminate. cbn [fst snd]. symmetry. apply fprepend_app.
Qed.

Definition all_after (k : Z) (its : list bof) : Prop := Forall (fun b => k < left_of b) (bounds_only its).

Lemma no_bounds_all_after its k : no_bounds its -> all_after k its.
Proof. unfold all_after. intros ->. constructor. Qed.

Lemma asc_all_after lo n its k : asc lo n its -> k <= lo -> all_after k its.
Proof.
  revert lo; induction its as [|[b|f] its IH]; intros lo H Hk; [constructor | | exact (IH lo H Hk)].
  destruct H as [H1 [_ H3]]. constructor; [lia|]. destruct (br b) as [rv|].
  - apply (IH rv); [apply H3 | lia].
  - apply no_bounds_all_after, H3.
Qed.

Lemma piece_shift so k f fs b : k < left_of b -> piece_from so k (f :: fs) b = piece_from so (k + 1) fs b.
Proof.
  intros Hl. unfold piece_from.
  replace (k + 1 - 1 + Z.of_nat (length fs)) with (k - 1 + Z.of_nat (length (f :: fs))) by (cbn [length]; lia).
  destruct (left_of b <=? k - 1 + Z.of_nat (length (f :: fs))); [|reflexivity].
  rewrite !(proj2 (Z.ltb_ge _ _)) by lia.
  replace (Z.to_nat (left_of b - k)) with (S (Z.to_nat (left_of b - (k + 1)))) by lia. reflexivity.
Qed.

Lemma tail_spec_shift so k f fs its :
  all_after k its -> tail_spec so k (f :: fs) its = tail_spec so (k + 1) fs its.
Proof.
  induction its as [|[b|g] its IH]; intros H; [reflexivity|..]; cbn [tail_spec].
  - rewrite (IH (Forall_inv_tail H)), (piece_shift so k f fs b (Forall_inv H)). reflexivity.
  - rewrite (IH H). reflexivity.
Qed.

(** [pff]'s test whether a bound has begun within [n] fields *)
Lemma begun_left_of b n : 0 < n -> match bl b with SCont => true | SSome l => l <=? n end = (left_of b <=? n).
Proof. intros Hn. unfold left_of. destruct (bl b); [reflexivity | symmetry; apply Z.leb_le; lia]. Qed.

Lemma pff_absent so k fs its n :
  n = k - 1 + Z.of_nat (length fs) -> 0 < n -> all_after n its -> pff so its n = tail_spec so k fs its.
Proof.
  intros Hn Hpos. induction its as [|[b|g] its IH]; intros H; [reflexivity|..]; cbn [pff tail_spec].
  - rewrite (IH (Forall_inv_tail H)), (begun_left_of b n Hpos). unfold piece_from. rewrite <- Hn.
    rewrite (proj2 (Z.leb_gt (left_of b) n) (Forall_inv H)). cbn [andb]. unfold sep_b.
    destruct (fallback_for b (s_fallback so)); [|reflexivity].
    destruct (tail_spec so k fs its); reflexivity.
  - rewrite (IH H). destruct (tail_spec so k fs its); reflexivity.
Qed.

Lemma pff_no_bounds so its m k fs : no_bounds its -> pff so its m = tail_spec so k fs its.
Proof.
  induction its as [|x its IH]; intros H; [reflexivity|]. destruct x as [b|f]; [discriminate|].
  cbn [pff tail_spec]. rewrite (IH H). destruct (tail_spec so k fs its); reflexivity.
Qed.

Lemma intercalate_flat sd x rest :
  intercalate [sd] (x :: rest) = x ++ flat_map (fun f => sd :: f) rest.
Proof.
  revert x; induction rest as [|y rest IH]; intros x.
  - cbn [intercalate flat_map]. rewrite app_nil_r. reflexivity.
  - rewrite intercalate_cons, (IH y) by discriminate. reflexivity.
Qed.

Lemma piece_step so k f fs b n hi :
  n = k - 1 + Z.of_nat (length (f :: fs)) -> hi = match br b with SSome r => r | SCont => n end ->
  left_of b <= k -> k <= hi -> hi <= n ->
  piece_from so k (f :: fs) b
  = Some ((if left_of b <? k then [sdelim so] else []) ++ f
          ++ flat_map (fun g => sdelim so :: g) (firstn (Z.to_nat (hi - k)) fs))
  /\ piece_from so (k + 1) fs b = Some (flat_map (fun g => sdelim so :: g) (firstn (Z.to_nat (hi - k)) fs)).
Proof.
  intros Hn Hhi Hlk Hk Hle. unfold piece_from.
  replace (k + 1 - 1 + Z.of_nat (length fs)) with (k - 1 + Z.of_nat (length (f :: fs))) by (cbn [length]; lia).
  rewrite <- Hn, <- Hhi, (proj2 (Z.leb_le (left_of b) n)) by lia. split.
  - destruct (Z.ltb_spec (left_of b) k).
    + replace (Z.to_nat (hi - k + 1)) with (S (Z.to_nat (hi - k))) by lia. reflexivity.
    + replace (Z.to_nat (left_of b - k)) with 0%nat by lia.
      replace (Z.to_nat (hi - left_of b + 1)) with (S (Z.to_nat (hi - k))) by lia.
      cbn [skipn firstn app]. rewrite intercalate_flat. reflexivity.
  - rewrite (proj2 (Z.ltb_lt (left_of b) (k + 1))) by lia.
    replace (hi - (k + 1) + 1) with (hi - k) by lia. reflexivity.
Qed.

Lemma last_bound_r_last l : last_bound_r l = last (map br (bounds_only l)) SCont.
Proof.
  unfold last_bound_r. induction (bounds_only l) as [|b bs _] using rev_ind; [reflexivity|].
  rewrite rev_unit, map_app. symmetry. apply last_last.
Qed.

Lemma last_bound_r_cons_bound b r :
  last_bound_r (Bound b :: r) = match bounds_only r with [] => br b | _ => last_bound_r r end.
Proof.
  rewrite !last_bound_r_last. change (bounds_only (Bound b :: r)) with (b :: bounds_only r).
  destruct (bounds_only r); reflexivity.
Qed.

(** [print_bof]'s test for a delimiter in front of field [k], once the bound has begun *)
Lemma delim_before_field b k : 0 < left_of b -> left_of b <= k ->
  ((1 <? k) && negb (side_eqb (bl b) (SSome k))) = (left_of b <? k).
Proof.
  unfold left_of. intros H1 H2. destruct (bl b) as [l|]; cbn [side_eqb negb]; [|apply andb_true_r].
  destruct (Z.eqb_spec l k) as [->|Hne]; cbn [negb].
  - rewrite andb_false_r. symmetry. apply Z.ltb_irrefl.
  - rewrite andb_true_r, !(proj2 (Z.ltb_lt _ _)) by lia. reflexivity.
Qed.

Lemma pending_shape r : no_adjacent_fillers r -> bounds_only r <> [] ->
  (exists b r', r = Bound b :: r') \/ (exists f b r', r = Filler f :: Bound b :: r').
Proof.
  intros Hn Hb. destruct r as [|[b|f] r']; [contradiction | left; eauto |].
  destruct r' as [|[b|g] r'']; [contradiction | right; eauto | contradiction].
Qed.

Lemma asc_last_after n : forall its lo, asc lo n its -> bounds_only its <> [] ->
  match last_bound_r its with SSome v => lo < v | SCont => True end.
Proof.
  induction its as [|[b|f] its IH]; intros lo Ha Hb; [contradiction | | exact (IH lo Ha Hb)].
  rewrite last_bound_r_cons_bound. destruct Ha as [A1 [_ A3]]. destruct (br b) as [v|].
  - destruct A3 as [A3 [_ A5]]. destruct (bounds_only its) eqn:E; [lia|].
    specialize (IH v A5 ltac:(discriminate)). destruct (last_bound_r its); [lia | exact I].
  - rewrite (proj2 A3). exact I.
Qed.

(** the pending head bound at field [k] of [n]: not yet done, otherwise as in [asc] *)
Definition head_ok (k n : Z) (b : ubound) (r : list bof) : Prop :=
  match br b with
  | SSome rv => k <= rv /\ left_of b <= rv /\ (rv <= n \/ n < left_of b) /\ asc rv n r
  | SCont => blast b = true /\ no_bounds r
  end.

Lemma asc_head lo n b r k : asc lo n (Bound b :: r) -> k <= lo + 1 -> 0 < left_of b /\ head_ok k n b r.
Proof.
  cbn [asc]. unfold head_ok. intros [A1 [A2 A3]] Hk. split; [exact A2|].
  destruct (br b); [|exact A3]. repeat split; try apply A3. lia.
Qed.

Lemma early_stop_eq so n b r k :
  s_lif so = last_bound_r (Bound b :: r) -> head_ok k n b r ->
  side_eqb (SSome k) (s_lif so) = match bounds_only r with [] => side_eqb (SSome k) (br b) | _ => false end.
Proof.
  unfold head_ok. intros -> H. rewrite last_bound_r_cons_bound.
  destruct (bounds_only r) eqn:E; [reflexivity|].
  destruct (br b) as [rv|]; [|destruct H as [_ H]; unfold no_bounds in H; congruence].
  destruct H as [Hk [_ [_ Ha]]]. pose proof (asc_last_after n r rv Ha ltac:(rewrite E; discriminate)) as G.
  destruct (last_bound_r r); [apply Z.eqb_neq; lia | reflexivity].
Qed.

(** a pending list begins with its first bound, or with one filler before it: what holds of
    every list headed by a bound carries over *)
Lemma from_head_bound so fs k n :
  (forall b r, 0 < left_of b -> head_ok k n b r -> s_lif so = last_bound_r (Bound b :: r) ->
               no_adjacent_fillers r ->
               stream_fields so (Bound b :: r) k fs = done_res so (tail_spec so k fs (Bound b :: r))) ->
  forall its lo, asc lo n its -> k <= lo + 1 -> bounds_only its <> [] -> no_adjacent_fillers its ->
                 s_lif so = last_bound_r its ->
                 stream_fields so its k fs = done_res so (tail_spec so k fs its).
Proof.
  intros P its lo Ha Hk Hb Hn Hlif.
  destruct (pending_shape its Hn Hb) as [[b [r ->]]|[f [b [r ->]]]]; destruct (asc_head lo n b r k Ha Hk) as [Hl Hd].
  - exact (P b r Hl Hd Hlif (naf_tail _ _ Hn)).
  - rewrite stream_fields_filler, (P b r Hl Hd Hlif (naf_tail _ _ (naf_tail _ _ Hn))). apply fprepend_done.
Qed.

Lemma stream_fields_tail so : forall fs k n b r,
  n = k - 1 + Z.of_nat (length fs) -> 0 < k -> fs <> [] -> 0 < left_of b -> head_ok k n b r ->
  s_lif so = last_bound_r (Bound b :: r) -> no_adjacent_fillers r ->
  stream_fields so (Bound b :: r) k fs = done_res so (tail_spec so k fs (Bound b :: r)).
Proof.
  induction fs as [|f fs IH]; intros k n b r Hn Hk Hne Hl Hdom Hlif Hnaf; [contradiction|].
  pose proof (early_stop_eq so n b r k Hlif Hdom) as Hstop. unfold head_ok in Hdom.
  set (hi := match br b with SSome rv => rv | SCont => n end).
  assert (Hkn : k <= n) by (cbn [length] in Hn; lia).
  assert (Hhi : k <= hi) by (subst hi; destruct (br b); [apply Hdom | exact Hkn]).
  assert (Hafter : all_after k r)
    by (destruct (br b); [eapply asc_all_after; [apply Hdom | lia] | apply no_bounds_all_after, Hdom]).
  pose proof (matches_upto b k n (conj Hk Hkn) Hl ltac:(destruct (br b); [apply Hdom | exact I])) as Hm. fold hi in Hm.
  (* while the head bound goes on past field k, so does the scan *)
  assert (Hcont : forall g fs', fs = g :: fs' -> match br b with SSome rv => k < rv | SCont => True end ->
            side_eqb (SSome k) (s_lif so) = false
            /\ stream_fields so (Bound b :: r) (k + 1) fs = done_res so (tail_spec so (k + 1) fs (Bound b :: r))).
  { intros g fs' -> Hlt. split.
    - rewrite Hstop. destruct (bounds_only r); [|reflexivity].
      destruct (br b); [apply Z.eqb_neq; lia | reflexivity].
    - apply (IH (k + 1) n b r); try assumption; [cbn [length] in *; lia | lia | discriminate |].
      unfold head_ok. destruct (br b); [|exact Hdom]. repeat split; try apply Hdom. lia. }
  rewrite stream_fields_cons.
  destruct (Z_lt_le_dec k (left_of b)) as [Hbefore|Hinside].
  - (* field k lies before the head bound: nothing is printed for it *)
    rewrite (proj2 (Z.leb_gt (left_of b) k) Hbefore) in Hm.
    rewrite (stream_field_outside so b r k f Hm). cbn [fst snd fprepend].
    destruct fs as [|g fs'].
    + (* the last field: every pending bound is absent *)
      rewrite (pff_absent so k [f] (Bound b :: r) k); [destruct (tail_spec so k [f] (Bound b :: r)); reflexivity | ..].
      * cbn [length]. lia.
      * exact Hk.
      * exact (Forall_cons b Hbefore Hafter).
    + destruct (Hcont g fs' eq_refl) as [-> ->]; [destruct (br b); [lia | exact I]|].
      rewrite (tail_spec_shift so k f (g :: fs') (Bound b :: r) (Forall_cons b Hbefore Hafter)).
      destruct (tail_spec so (k + 1) (g :: fs') (Bound b :: r)); reflexivity.
  - (* field k belongs to the head bound, which is present: left_of b <= k <= hi <= n *)
    assert (Hle : hi <= n) by (subst hi; destruct (br b); [|lia]; destruct Hdom as [_ [_ [[H|H] _]]]; lia).
    rewrite (proj2 (Z.leb_le (left_of b) k) Hinside), (proj2 (Z.leb_le k hi) Hhi) in Hm.
    destruct (piece_step so k f fs b n hi Hn eq_refl Hinside Hhi Hle) as [Hp Hp'].
    rewrite tail_spec_bound, Hp, (stream_field_rule so b r k f Hm), (delim_before_field b k Hl Hinside). cbn [fst snd].
    destruct (Z_lt_le_dec k hi) as [Hlt|Hend].
    + (* more fields of the range follow *)
      destruct fs as [|g fs']; [cbn [length] in Hn; lia|].
      replace (side_eqb (br b) (SSome k)) with false
        by (subst hi; destruct (br b); [symmetry; apply Z.eqb_neq; lia | reflexivity]).
      destruct (Hcont g fs' eq_refl) as [-> ->]; [subst hi; destruct (br b); [exact Hlt | exact I]|].
      rewrite tail_spec_bound, Hp', fprepend_done, option_map_app, (tail_spec_shift so k f (g :: fs') r Hafter).
      rewrite app_nil_r, <- !app_assoc. reflexivity.
    + (* the range ends with field k *)
      replace (hi - k) with 0 by lia. cbn [Z.to_nat firstn flat_map]. rewrite app_nil_r. subst hi.
      destruct (br b) as [rv|] eqn:Ebr.
      * (* a closed range: the bound is done, and what follows it is printed from r *)
        assert (rv = k) by lia. subst rv. rewrite side_eqb_refl.
        rewrite <- fprepend_done, <- app_assoc. f_equal. fold (sep_b so b).
        destruct fs as [|g fs'].
        -- apply f_equal, (pff_absent so k [f] r k); [cbn [length]; lia | exact Hk | exact Hafter].
        -- rewrite Hstop. destruct (bounds_only r) eqn:Eq.
           ++ (* early stop: nothing but fillers can be left *)
              rewrite side_eqb_refl. apply f_equal, pff_no_bounds, Eq.
           ++ rewrite (tail_spec_shift so k f (g :: fs') r Hafter).
              apply (from_head_bound so (g :: fs') (k + 1) n) with (lo := k); try assumption; try lia.
              ** intros b' r'. apply IH; [cbn [length] in *; lia | lia | discriminate].
              ** apply Hdom.
              ** rewrite Eq. discriminate.
              ** rewrite Hlif, last_bound_r_cons_bound, Eq. reflexivity.
      * (* an open range runs to the end of the record, and is the last bound *)
        destruct fs as [|g fs']; [|cbn [length] in Hn; lia]. cbn [side_eqb pff].
        rewrite Ebr, (begun_left_of b k Hk), (proj2 (Z.leb_le (left_of b) k) Hinside). cbn [andb side_eqb].
        rewrite (pff_no_bounds so r k k [f] (proj2 Hdom)), fprepend_done.
        unfold sep_b. rewrite (proj1 Hdom), andb_false_r, !app_nil_r. reflexivity.
Qed.

Theorem stream_fields_spec so : forall fs k b r,
  0 < k -> fs <> [] ->
  0 < left_of b ->
  (match br b with
   | SSome rv => k <= rv /\ left_of b <= rv
                 /\ (rv <= k - 1 + Z.of_nat (length fs) \/ k - 1 + Z.of_nat (length fs) < left_of b)
                 /\ asc rv (k - 1 + Z.of_nat (length fs)) r
   | SCont => blast b = true /\ no_bounds r
   end) ->
  s_lif so = last_bound_r (Bound b :: r) ->
  no_adjacent_fillers r ->
  stream_fields so (Bound b :: r) k fs = done_res so (tail_spec so k fs (Bound b :: r)).
Proof. intros fs k b r. exact (stream_fields_tail so fs k _ b r eq_refl). Qed.

Lemma try_into_range_present b n :
  0 < left_of b -> left_of b <= Z.of_nat n ->
  (match br b with SSome rv => left_of b <= rv /\ rv <= Z.of_nat n | SCont => True end) ->
  try_into_range b n
  = Some (Z.to_nat (left_of b - 1),
          Z.to_nat (match br b with SSome rv => rv | SCont => Z.of_nat n end)).
Proof.
  intros Hl Hln Hr. unfold try_into_range, resolve_left, resolve_right, left_of in *.
  destruct (bl b) as [l|]; destruct (br b) as [rv|];
    rewrite ?(proj2 (Z.ltb_ge _ _)) by lia; cbn [orb]; rewrite (proj2 (Z.leb_gt _ _)) by lia; reflexivity.
Qed.

Lemma try_into_range_absent b n : (0 < n)%nat -> Z.of_nat n < left_of b -> try_into_range b n = None.
Proof.
  intros Hn H. unfold try_into_range, left_of in *. destruct (bl b) as [l|]; [|lia].
  cbn [resolve_left]. rewrite (proj2 (Z.ltb_lt (Z.of_nat n) l)) by exact H. reflexivity.
Qed.

Lemma no_bounds_asc lo n its : no_bounds its -> asc lo n its.
Proof.
  induction its as [|[b|f] its IH]; intros H; [exact I | discriminate | exact (IH H)].
Qed.

Theorem tail_spec_is_spec_items so F : F <> [] -> forall its lo,
  asc lo (Z.of_nat (length F)) its -> 0 <= lo ->
  tail_spec so 1 F its = spec_items F (s_fallback so) (s_join so) [sdelim so] its.
Proof.
  intros HF. induction its as [|[b|f] its IH]; intros lo Ha Hlo; [reflexivity|..];
    cbn [asc tail_spec spec_items] in *; [|rewrite (IH lo Ha Hlo); reflexivity].
  destruct Ha as [A1 [A2 A3]].
  assert (Hrest : tail_spec so 1 F its = spec_items F (s_fallback so) (s_join so) [sdelim so] its).
  { destruct (br b) as [rv|]; [apply (IH rv); [apply A3 | lia] | apply (IH lo); [apply no_bounds_asc, A3 | exact Hlo]]. }
  rewrite Hrest. clear Hrest IH.
  fold (sep_b so b). unfold piece_from.
  replace (1 - 1 + Z.of_nat (length F)) with (Z.of_nat (length F)) by lia.
  destruct (Z.leb_spec (left_of b) (Z.of_nat (length F))) as [Hpres|Habs].
  - assert (Hr : match br b with SSome rv => left_of b <= rv /\ rv <= Z.of_nat (length F) | SCont => True end)
      by (destruct (br b); [lia | exact I]).
    rewrite (proj2 (Z.ltb_ge (left_of b) 1)), (try_into_range_present b (length F) A2 Hpres Hr) by lia.
    replace (Z.to_nat (match br b with SSome rv => rv | SCont => Z.of_nat (length F) end) - Z.to_nat (left_of b - 1))%nat
      with (Z.to_nat (match br b with SSome r => r | SCont => Z.of_nat (length F) end - left_of b + 1))
      by (destruct (br b); lia).
    reflexivity.
  - rewrite try_into_range_absent by first [exact Habs | destruct F; [contradiction | cbn; lia]]. reflexivity.
Qed.

Lemma stream_opt_plain o so : stream_opt o = Some so ->
  plain_opts o (s_delim so) /\ [sdelim so] = rep_of o (s_delim so).
Proof.
  intros H. destruct (stream_opt_view o so H) as [[Hd [Hx [Hj [Hb [Hc [Hg Hp]]]]]] [Hr _]].
  unfold plain_opts, sdelim, rep_of. rewrite Hb, Hr. destruct (s_repl so); repeat split; assumption.
Qed.

Definition stream_record (so : sopt) (r : bytes) : rres :=
  match record_out so (scan_chunk so (s_items so) 1 false [] (r ++ [s_eol so]) []) with
  | Some o => ROk o
  | None => RErr
  end.

Definition record_ok (so : sopt) (its : list bof) (r : bytes) : Prop :=
  r = [] \/ asc 0 (Z.of_nat (length (split_on (s_delim so) r))) its.

(** C03 on one record: -M prints exactly what the general path prints, and fails exactly when
    it fails *)
Lemma C03_record_cut o so r :
  stream_opt o = Some so ->
  Forall item_nz (items (o_bounds o)) ->
  no_adjacent_fillers (items (o_bounds o)) -> bounds_only (items (o_bounds o)) <> [] ->
  bfree (s_eol so) r -> record_ok so (items (o_bounds o)) r ->
  cut_str o r = Some (stream_record so r).
Proof.
  intros Hso Hnz Hnaf Hb He Hok.
  destruct (stream_opt_plain o so Hso) as [Hpl Hrep].
  destruct (stream_opt_view o so Hso) as [_ [_ [Ht [Hs [_ [Hj [Heol [Hf [Hi Hlif]]]]]]]]].
  unfold stream_record. destruct r as [|c0 r0].
  - (* an empty record yields an empty record on both sides *)
    rewrite (general_empty_record o Hs Ht (or_introl (proj1 (proj2 Hpl)))), <- Heol.
    cbn [app scan_chunk]. rewrite N.eqb_refl. reflexivity.
  - set (r := c0 :: r0) in *. assert (Hr : r <> []) by discriminate.
    destruct Hok as [E|Hasc]; [contradiction|].
    set (F := split_on (s_delim so) r) in *.
    assert (HF : F <> []) by apply split_on_ne.
    (* the general path prints the specified items, which are the remainder from field 1 *)
    rewrite (general_plain_record o (s_delim so) r Hpl Ht Hs Hr Hnz), <- Hrep, <- Hj, <- Hf, <- Heol. fold F.
    rewrite <- (tail_spec_is_spec_items so F HF (items (o_bounds o)) 0 Hasc ltac:(lia)).
    (* the -M side: the scan read field by field, then the main induction *)
    pose proof (intercalate_split_on (s_delim so) r) as Hir. fold F in Hir. rewrite <- Hir.
    rewrite scan_record_fields; [| exact HF | apply split_on_dfree | rewrite Hir; exact He | lia |].
    + rewrite Hi, (from_head_bound so F 1 (Z.of_nat (length F))
                     (fun b r' => stream_fields_tail so F 1 _ b r' eq_refl ltac:(lia) HF)
                     (items (o_bounds o)) 0 Hasc ltac:(lia) Hb Hnaf Hlif).
      destruct (tail_spec so 1 F (items (o_bounds o))); reflexivity.
    + intros _ E. apply Hr. rewrite <- Hir, E. reflexivity.
Qed.

Theorem C03_record o so r rest cs :
  stream_opt o = Some so ->
  Forall item_nz (items (o_bounds o)) ->
  no_adjacent_fillers (items (o_bounds o)) -> bounds_only (items (o_bounds o)) <> [] ->
  r <> [] -> bfree (s_eol so) r ->
  asc 0 (Z.of_nat (length (split_on (s_delim so) r))) (items (o_bounds o)) ->
  rec_chunks so (Normal (s_items so) 1 false) false ((r ++ s_eol so :: rest) :: cs) []
  = match cut_str o r with
    | Some (ROk x) => RRecord x (push_rest rest cs)
    | _ => RFail
    end.
Proof.
  intros Hso Hnz Hnaf Hb _ He Hasc.
  destruct (stream_opt_view o so Hso) as [_ [_ [_ [_ [_ [_ [_ [_ [Hi _]]]]]]]]].
  rewrite record_terminated, (C03_record_cut o so r Hso Hnz Hnaf Hb He (or_intror Hasc)) by (rewrite ?Hi; assumption).
  unfold stream_record. destruct (record_out so _); reflexivity.
Qed.

Lemma first_record eol : forall l : bytes,
  bfree eol l \/ exists r rest, l = r ++ eol :: rest /\ bfree eol r.
Proof.
  induction l as [|x l IH]; [left; constructor|].
  destruct (N.eqb x eol) eqn:E.
  - right. exists [], l. apply N.eqb_eq in E. subst x. split; [reflexivity | constructor].
  - destruct IH as [H|[r [rest [-> H]]]].
    + left. constructor; assumption.
    + right. exists (x :: r), rest. split; [reflexivity | constructor; assumption].
Qed.

Lemma records_first eol r rest : bfree eol r -> records eol (r ++ eol :: rest) = r :: records eol rest.
Proof.
  intros H. rewrite !records_spec, split_on_app_dfree by exact H. apply drop_last_empty_cons, split_on_ne.
Qed.

Lemma records_last eol r : bfree eol r -> r <> [] -> records eol r = [r].
Proof.
  intros H Hr. rewrite records_spec, split_on_dfree_one by exact H. destruct r; [contradiction | reflexivity].
Qed.

(** the fixed-memory reader maps a per-record function over the records of the input: nothing
    computed for one record reaches the next *)
Lemma run_stream_fuel_records so cut :
  no_adjacent_fillers (s_items so) ->
  forall fuel input acc,
    (length input < fuel)%nat ->
    Forall (fun r => bfree (s_eol so) r -> cut r = Some (stream_record so r)) (records (s_eol so) input) ->
    Some (run_stream_fuel fuel so (push_rest input []) acc)
    = run_records cut (records (s_eol so) input) acc.
Proof.
  intros Hn. induction fuel as [|fuel IH]; intros input acc Hlen Hcut; [lia|].
  cbn [run_stream_fuel].
  destruct (first_record (s_eol so) input) as [Hfree|[r [rest [-> Hfree]]]].
  - destruct input as [|c0 i0]; [reflexivity|]. set (r := c0 :: i0) in *.
    rewrite (records_last _ r Hfree) in * by discriminate.
    change (push_rest r []) with [r].
    rewrite record_unterminated by (assumption || discriminate || lia).
    cbn [run_records]. rewrite (Forall_inv Hcut Hfree). unfold stream_record.
    destruct (record_out so _); reflexivity.
  - rewrite (records_first _ r rest Hfree) in *.
    rewrite push_rest_cons, record_terminated by (assumption || (destruct r; discriminate)).
    cbn [run_records]. rewrite (Forall_inv Hcut Hfree). unfold stream_record.
    destruct (record_out so _); [|reflexivity].
    apply IH; [|exact (Forall_inv_tail Hcut)]. rewrite app_length in Hlen. cbn [length] in Hlen. lia.
Qed.

Theorem run_stream_records so cut input :
  no_adjacent_fillers (s_items so) ->
  Forall (fun r => bfree (s_eol so) r -> cut r = Some (stream_record so r)) (records (s_eol so) input) ->
  Some (run_stream_whole so input) = run_records cut (records (s_eol so) input) [].
Proof.
  intros Hn. apply run_stream_fuel_records; [exact Hn|].
  unfold total_len, push_rest. destruct input; cbn [fold_right length]; lia.
Qed.

(** C03 on whole inputs, for bounds in the domain [asc]: same stdout, status and completed records
    as without -M; empty records, empty fields and a final record without EOL included *)
Corollary C03_run o so input :
  stream_opt o = Some so ->
  Forall item_nz (items (o_bounds o)) ->
  no_adjacent_fillers (items (o_bounds o)) -> bounds_only (items (o_bounds o)) <> [] ->
  Forall (record_ok so (items (o_bounds o))) (records (s_eol so) input) ->
  Some (run_stream_whole so input) = read_and_cut_str o input.
Proof.
  intros Hso Hnz Hnaf Hb Hok. unfold read_and_cut_str.
  destruct (stream_opt_view o so Hso) as [_ [_ [_ [_ [_ [_ [Heol [_ [Hi _]]]]]]]]]. rewrite <- Heol.
  apply run_stream_records; [rewrite Hi; exact Hnaf|].
  eapply Forall_impl; [|exact Hok]. intros r Hr Hfree. apply C03_record_cut; assumption.
Qed.

(** the part of [asc] that depends on the record *)
Definition no_straddle (n : Z) (its : list bof) : Prop :=
  Forall (fun b => match br b with SSome rv => rv <= n \/ n < left_of b | SCont => True end) (bounds_only its).

Definition closed_ordered (b : ubound) : Prop :=
  match bl b, br b with SSome l, SSome r => l <= r | _, _ => True end.

Definition pos_side (s : side) : Prop := match s with SSome v => 0 < v | SCont => True end.

Lemma left_of_pos b : pos_side (bl b) -> 0 < left_of b.
Proof. unfold left_of, pos_side. destruct (bl b); lia. Qed.

Lemma forward_positive its :
  is_forward_only its = true -> Forall item_nz its ->
  Forall (fun b => pos_side (bl b) /\ pos_side (br b)) (bounds_only its).
Proof.
  intros Hf Hnz. unfold is_forward_only in Hf. apply andb_true_iff in Hf. destruct Hf as [_ Hneg].
  apply negb_true_iff in Hneg. apply Forall_forall. intros b Hb.
  destruct (proj1 (Forall_forall _ _) Hnz _ (proj1 (bounds_only_in _ _) Hb)) as [Z1 Z2].
  destruct (side_neg (bl b) || side_neg (br b)) eqn:E.
  - unfold has_negative_indices in Hneg.
    rewrite (proj2 (existsb_exists _ _)) in Hneg by (exists b; split; assumption). discriminate.
  - apply orb_false_iff in E. destruct E as [N1 N2]. unfold pos_side, side_nz, side_neg in *.
    split; [destruct (bl b) | destruct (br b)]; try exact I; [apply Z.ltb_ge in N1 | apply Z.ltb_ge in N2]; lia.
Qed.

Lemma sorted_open_is_last : forall bs prev,
  is_sorted_from prev bs = true -> br prev = SCont -> bs = [].
Proof.
  intros bs prev H Hp. destruct bs as [|b bs]; [reflexivity|]. cbn [is_sorted_from] in H.
  unfold bound_le in H. rewrite Hp in H. destruct (bl b); cbn in H; discriminate.
Qed.

(** the left side as [bound_le] and [strict_from] read it *)
Lemma left_side_of b : match bl b with SCont => SSome 1 | s => s end = SSome (left_of b).
Proof. unfold left_of. destruct (bl b); reflexivity. Qed.

(** a sorted list whose bounds do not touch (what ForwardBounds accepts) ascends after [lo] *)
Lemma sorted_strict_asc n : forall its lo,
  Forall (fun b => (pos_side (bl b) /\ pos_side (br b)) /\ closed_ordered b /\ (br b = SCont -> blast b = true)
                   /\ match br b with SSome rv => rv <= n \/ n < left_of b | SCont => True end) (bounds_only its) ->
  match bounds_only its with b :: bs => lo <= left_of b /\ is_sorted_from b bs = true | [] => True end ->
  strict_from (SSome lo) (bounds_only its) = true ->
  asc lo n its.
Proof.
  induction its as [|[b|f] its IH]; intros lo HF Hs Hst; [exact I | | exact (IH lo HF Hs Hst)].
  change (bounds_only (Bound b :: its)) with (b :: bounds_only its) in *.
  destruct (Forall_inv HF) as [[P1 P2] [Ob [Lb Nb]]]. apply Forall_inv_tail in HF.
  destruct Hs as [Hlo Hsort]. cbn [strict_from asc] in *. rewrite left_side_of in Hst. cbn [side_eqb] in Hst.
  destruct (Z.eqb_spec (left_of b) lo) as [|Hne]; [discriminate|].
  split; [lia|]. split; [exact (left_of_pos b P1)|]. destruct (br b) as [rv|] eqn:Ebr.
  - split; [|split; [exact Nb|]].
    + unfold closed_ordered in Ob. rewrite Ebr in Ob. unfold left_of. cbn [pos_side] in P2. destruct (bl b); lia.
    + apply IH; [exact HF | | exact Hst]. destruct (bounds_only its) as [|b2 bs]; [exact I|].
      cbn [is_sorted_from] in Hsort. unfold bound_le in Hsort. rewrite Ebr, left_side_of in Hsort. cbn [side_le] in Hsort.
      destruct (same_sign rv (left_of b2) && (rv <=? left_of b2)) eqn:Ele; [|discriminate].
      apply andb_true_iff in Ele. split; [apply Z.leb_le, Ele | exact Hsort].
  - split; [exact (Lb eq_refl) | exact (sorted_open_is_last _ b Hsort Ebr)].
Qed.

Lemma forward_bounds_view its :
  forward_bounds_ok its = true ->
  is_forward_only its = true /\ is_sorted its = true /\ strict_from (SSome 0) (bounds_only its) = true.
Proof.
  unfold forward_bounds_ok. destruct its as [|x its]; [discriminate|]. intros H.
  apply andb_true_iff in H. destruct H as [Hfo Hst]. repeat split; try assumption.
  unfold is_forward_only in Hfo. apply andb_true_iff in Hfo. destruct Hfo as [Hfo _].
  apply andb_true_iff in Hfo. apply Hfo.
Qed.

(** beyond [no_straddle], [asc] asks only for static facts: what -M accepts, and what holds of the
    lists the parser builds *)
Theorem static_domain n its :
  forward_bounds_ok its = true -> Forall item_nz its ->
  Forall closed_ordered (bounds_only its) ->
  Forall (fun b => br b = SCont -> blast b = true) (bounds_only its) ->
  no_straddle n its ->
  asc 0 n its.
Proof.
  intros Hfb Hnz Hord Hlast Hns. destruct (forward_bounds_view its Hfb) as [Hfo [Hsorted Hst]].
  pose proof (forward_positive its Hfo Hnz) as Hpos.
  apply sorted_strict_asc; [exact (Forall_and Hpos (Forall_and Hord (Forall_and Hlast Hns))) | | exact Hst].
  unfold is_sorted in Hsorted. destruct (bounds_only its) as [|b bs]; [exact I|]. split; [|exact Hsorted].
  apply Z.lt_le_incl, left_of_pos, (Forall_inv Hpos).
Qed.

Lemma mark_last_open_blast : forall l, is_sorted (mark_last l) = true ->
  Forall (fun b => br b = SCont -> blast b = true) (bounds_only (mark_last l)).
Proof.
  induction l as [|[b|f] l IH]; cbn [mark_last]; [constructor | | exact IH].
  pose proof (bounds_only_mark_last_len l) as Hlen. destruct (bounds_only l) as [|b' bs] eqn:E.
  - intros _. change (bounds_only (Bound (set_last b) :: l)) with (set_last b :: bounds_only l).
    rewrite E. repeat constructor.
  - unfold is_sorted. change (bounds_only (Bound b :: mark_last l)) with (b :: bounds_only (mark_last l)).
    intros Hs. constructor.
    + intros Hb. rewrite (sorted_open_is_last _ b Hs Hb) in Hlen. discriminate.
    + apply IH. unfold is_sorted. destruct (bounds_only (mark_last l)) as [|b2 bs2]; [reflexivity|].
      cbn [is_sorted_from] in Hs. destruct (bound_le b b2); [exact Hs | discriminate].
Qed.

Theorem from_vec_static l0 u :
  from_vec l0 = Some u -> is_sorted (items u) = true ->
  Forall (fun b => br b = SCont -> blast b = true) (bounds_only (items u))
  /\ bounds_only (items u) <> [].
Proof.
  intros Hfv. destruct (from_vec_items l0 u Hfv) as [-> Hb]. intros Hs. split; [exact (mark_last_open_blast l0 Hs)|].
  intros E. apply Hb, length_zero_iff_nil. rewrite <- bounds_only_mark_last_len, E. reflexivity.
Qed.

Lemma closed_ordered_mark l : Forall closed_ordered (bounds_only l) -> Forall closed_ordered (bounds_only (mark_last l)).
Proof.
  induction l as [|[b|f] l IH]; cbn [mark_last]; [trivial | | exact IH].
  change (bounds_only (Bound b :: l)) with (b :: bounds_only l). intros H.
  destruct (bounds_only l) eqn:E.
  - change (bounds_only (Bound (set_last b) :: l)) with (set_last b :: bounds_only l). rewrite E.
    constructor; [exact (Forall_inv H) | constructor].
  - constructor; [exact (Forall_inv H) | exact (IH (Forall_inv_tail H))].
Qed.

Lemma parse_bound_closed_ordered s b : parse_bound s = Some b -> pos_side (bl b) -> pos_side (br b) -> closed_ordered b.
Proof.
  intros H P1 P2. destruct (parse_bound_sound s b H) as [_ [_ Hs]].
  unfold closed_ordered. destruct (bl b) as [l|] eqn:E1; destruct (br b) as [r|] eqn:E2; try exact I.
  apply (Hs l r eq_refl eq_refl). cbn in P1, P2. unfold same_sign.
  rewrite !(proj2 (Z.ltb_lt 0 _)) by assumption. reflexivity.
Qed.

(** C03 as stated: for every option set -M accepts, every bounds list built by
    From<Vec<BoundOrFiller>> from items whose closed ranges are ordered, and every input on whose
    records each closed range is wholly present or wholly absent, -M gives the same stdout, status
    and completed records as the invocation without -M *)
Theorem C03_main o so l0 input :
  from_vec l0 = Some (o_bounds o) ->
  Forall item_nz l0 -> Forall closed_ordered (bounds_only l0) -> no_adjacent_fillers l0 ->
  stream_opt o = Some so ->
  Forall (fun r => r = [] \/ no_straddle (Z.of_nat (length (split_on (s_delim so) r))) (items (o_bounds o)))
         (records (s_eol so) input) ->
  Some (run_stream_whole so input) = read_and_cut_str o input.
Proof.
  intros Hfv Hnz Hord Hnaf Hso Hrec.
  destruct (stream_opt_view o so Hso) as [_ [_ [_ [_ [Hfb _]]]]].
  pose proof (proj1 (from_vec_items l0 _ Hfv)) as Hit.
  assert (Hnz' : Forall item_nz (items (o_bounds o))) by (rewrite Hit; apply mark_last_nz, Hnz).
  assert (Hord' : Forall closed_ordered (bounds_only (items (o_bounds o)))) by (rewrite Hit; apply closed_ordered_mark, Hord).
  assert (Hnaf' : no_adjacent_fillers (items (o_bounds o))) by (rewrite Hit; apply Proofs.C04Parse.mark_last_naf, Hnaf).
  destruct (from_vec_static l0 (o_bounds o) Hfv (proj1 (proj2 (forward_bounds_view _ Hfb)))) as [Hlast Hb].
  apply (C03_run o so input Hso Hnz' Hnaf' Hb).
  eapply Forall_impl; [|exact Hrec]. intros r [->|Hns]; [left; reflexivity|]. right.
  apply static_domain; assumption.
Qed.
