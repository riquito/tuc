(** C11: -z is newline mode with the roles of LF and NUL exchanged.
    Record splitting, field locations, trimming and -p depend only on which bytes are equal to
    which, so they commute with any injective renaming [f] of the bytes; exchanging LF and NUL is
    such a renaming.  Every function [X] of the model gets one lemma [X (map f a) = map f (X a)]
    (here and in C11Run, C11Stream, C11Lines); injectivity enters only through [eqb_f], in the
    functions that compare bytes. *)
From TucModel Require Import Base.Bytes Base.ListX Model.Scan Model.CutStr.

Definition swap (b : byte) : byte :=
  if N.eqb b LF then NUL else if N.eqb b NUL then LF else b.

Lemma swap_cases b : (b = LF /\ swap b = NUL) \/ (b = NUL /\ swap b = LF) \/ (b <> LF /\ b <> NUL /\ swap b = b).
Proof.
  unfold swap. destruct (N.eqb_spec b LF) as [->|H1]; [left; split; reflexivity|].
  destruct (N.eqb_spec b NUL) as [->|H2]; [right; left; split; reflexivity|].
  right; right. repeat split; assumption.
Qed.

Lemma swap_involutive b : swap (swap b) = b.
Proof. destruct (swap_cases b) as [[-> ->]|[[-> ->]|[_ [_ E]]]]; [reflexivity | reflexivity | rewrite E; exact E]. Qed.

Lemma swap_injective a b : swap a = swap b -> a = b.
Proof. intros H. rewrite <- (swap_involutive a), <- (swap_involutive b), H. reflexivity. Qed.

Section Renaming.
  Variable f : byte -> byte.
  Hypothesis f_inj : forall a b, f a = f b -> a = b.

  Lemma eqb_f a b : N.eqb (f a) (f b) = N.eqb a b.
  Proof.
    destruct (N.eqb_spec a b) as [->|H]; [apply N.eqb_refl|].
    apply N.eqb_neq. intros E. apply H, f_inj, E.
  Qed.

  Lemma records_aux_rename eol : forall l cur,
    records_aux (f eol) (map f cur) (map f l) = map (map f) (records_aux eol cur l).
  Proof.
    induction l as [|x l IH]; intros cur; cbn [map records_aux].
    - destruct cur; cbn [map]; [reflexivity|]. rewrite <- map_cons, <- map_rev. reflexivity.
    - rewrite eqb_f. destruct (N.eqb x eol).
      + cbn [map]. rewrite <- map_rev. f_equal. apply (IH []).
      + apply (IH (x :: cur)).
  Qed.

  Theorem records_rename eol l : records (f eol) (map f l) = map (map f) (records eol l).
  Proof. apply (records_aux_rename eol l []). Qed.

  Lemma strip_prefix_rename d l :
    strip_prefix (map f d) (map f l) = option_map (map f) (strip_prefix d l).
  Proof.
    revert l; induction d as [|x d IH]; intros l; cbn [map strip_prefix]; [reflexivity|].
    destruct l as [|y l]; cbn [map]; [reflexivity|]. rewrite eqb_f.
    destruct (N.eqb x y); [apply IH | reflexivity].
  Qed.

  Lemma find_iter_aux_rename d : forall l skip pos,
    find_iter_aux (map f d) skip pos (map f l) = find_iter_aux d skip pos l.
  Proof.
    induction l as [|x l IH]; intros skip pos; cbn [map find_iter_aux].
    - destruct skip; [destruct d; reflexivity | reflexivity].
    - destruct skip; [|apply IH]. unfold starts_with.
      rewrite <- map_cons, strip_prefix_rename, map_length, !IH.
      destruct (strip_prefix d (x :: l)); reflexivity.
  Qed.

  Lemma lit_matches_rename d line : lit_matches (map f d) (map f line) = lit_matches d line.
  Proof. unfold lit_matches, find_iter. rewrite find_iter_aux_rename, map_length. reflexivity. Qed.

  Lemma fields_of_matches_rename ms (line : bytes) : fields_of_matches ms (map f line) = fields_of_matches ms line.
  Proof. unfold fields_of_matches. rewrite map_length. destruct line; reflexivity. Qed.

  Lemma trim_left_fuel_rename d : forall fuel l,
    trim_left_fuel fuel (map f d) (map f l) = map f (trim_left_fuel fuel d l).
  Proof.
    induction fuel as [|n IH]; intros l; cbn [trim_left_fuel]; [reflexivity|].
    rewrite strip_prefix_rename. destruct (strip_prefix d l); cbn [option_map]; [apply IH | reflexivity].
  Qed.

  Lemma trim_left_rename d l : trim_left (map f d) (map f l) = map f (trim_left d l).
  Proof. unfold trim_left. destruct d; cbn [map]; [reflexivity|]. rewrite map_length. apply (trim_left_fuel_rename (_ :: _)). Qed.

  Theorem trim_rename k d l : trim_lit k (map f d) (map f l) = map f (trim_lit k d l).
  Proof.
    unfold trim_lit, trim_right. destruct k.
    - apply trim_left_rename.
    - rewrite <- !map_rev, trim_left_rename, map_rev. reflexivity.
    - rewrite trim_left_rename, <- !map_rev, trim_left_rename, map_rev. reflexivity.
  Qed.

  Lemma compress_from_rename d line : forall ps prev,
    compress_from (map f d) (map f line) prev ps = map f (compress_from d line prev ps).
  Proof.
    induction ps as [|idx ps IH]; intros prev; cbn [compress_from]; rewrite !map_length.
    - destruct (Nat.ltb prev (length line)); [apply skipn_map | reflexivity].
    - rewrite slice_rename, IH, map_app. f_equal. destruct (Nat.eqb idx 0); [reflexivity|].
      destruct (slice line prev idx); [reflexivity | symmetry; apply map_app].
  Qed.

  Theorem compress_rename d line :
    compress_delimiter (map f d) (map f line) = map f (compress_delimiter d line).
  Proof.
    unfold compress_delimiter, find_iter. rewrite find_iter_aux_rename. apply compress_from_rename.
  Qed.
End Renaming.

Example swap_terminators : swap LF = NUL /\ swap NUL = LF /\ swap 13%N = 13%N.
Proof. repeat split; reflexivity. Qed.
