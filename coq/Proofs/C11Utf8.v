(** C11: exchanging LF and NUL does not change how a text divides into UTF-8 characters. *)
From TucModel Require Import Base.Bytes Model.Utf8 Proofs.C11.
Local Open Scope N_scope.

(** 11 = LF + 1: a range that begins above LF holds neither LF nor NUL *)
Lemma in_rng_swap lo hi b : 11 <= lo -> in_rng lo hi (swap b) = in_rng lo hi b.
Proof.
  intros H. destruct (swap_cases b) as [[-> ->]|[[-> ->]|[_ [_ ->]]]]; try reflexivity;
    unfold in_rng, LF, NUL; (destruct (N.leb_spec lo 0); [lia|]); (destruct (N.leb_spec lo 10); [lia|]); reflexivity.
Qed.

Lemma head_len_swap l : utf8_head_len (map swap l) = utf8_head_len l.
Proof.
  destruct l as [|b0 r]; [reflexivity|]. cbn [map].
  destruct (swap_cases b0) as [[-> ->]|[[-> ->]|[_ [_ ->]]]]; [reflexivity | reflexivity |].
  (* the first byte is its own image; the others are only tested against ranges above LF *)
  unfold utf8_head_len at 1, is_cont.
  destruct r as [|b1 [|b2 [|b3 r]]]; cbn [map]; rewrite ?in_rng_swap by lia; reflexivity.
Qed.

Lemma utf8_chars_fuel_swap : forall fuel l,
  utf8_chars_fuel fuel (map swap l) = option_map (map (map swap)) (utf8_chars_fuel fuel l).
Proof.
  induction fuel as [|fuel IH]; intros [|b l']; try reflexivity. cbn [map utf8_chars_fuel].
  rewrite <- map_cons, head_len_swap. destruct (utf8_head_len (b :: l')) as [k|]; [|reflexivity].
  rewrite skipn_map, IH, firstn_map. destruct (utf8_chars_fuel fuel (skipn k (b :: l'))); reflexivity.
Qed.

Theorem utf8_chars_swap l : utf8_chars (map swap l) = option_map (map (map swap)) (utf8_chars l).
Proof. unfold utf8_chars. rewrite map_length. apply utf8_chars_fuel_swap. Qed.

Theorem utf8_valid_swap l : utf8_valid (map swap l) = utf8_valid l.
Proof. unfold utf8_valid. rewrite utf8_chars_swap. destruct (utf8_chars l); reflexivity. Qed.
