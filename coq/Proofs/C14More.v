(** C14: what a run over records delivers, exactly: on success the outputs of all the records, in
    order; on failure the outputs - complete and unmodified - of the records before the
    first failing one, and nothing of it or after it. *)
From TucModel Require Import Base.Bytes Model.CutStr.

Definition cut_ok (cut : bytes -> option rres) (r o : bytes) : Prop := cut r = Some (ROk o).

Lemma cut_ok_head cut r rs outs :
  Forall2 (cut_ok cut) (r :: rs) outs ->
  exists o outs', outs = o :: outs' /\ cut r = Some (ROk o) /\ Forall2 (cut_ok cut) rs outs'.
Proof. intros H. inversion H; subst. eauto. Qed.

Lemma run_records_done cut : forall rs acc out,
  run_records cut rs acc = Some (Done out) <->
  exists outs, Forall2 (cut_ok cut) rs outs /\ out = acc ++ concat outs.
Proof.
  induction rs as [|r rs IH]; intros acc out; cbn [run_records]; split.
  - intros [= <-]. exists []. split; [constructor | rewrite app_nil_r; reflexivity].
  - intros [outs [HF ->]]. inversion HF; subst. cbn. rewrite app_nil_r. reflexivity.
  - destruct (cut r) as [[o| | |]|] eqn:E; try discriminate.
    intros H. apply IH in H as [outs [HF ->]]. exists (o :: outs).
    split; [constructor; assumption | cbn [concat]; symmetry; apply app_assoc].
  - intros [outs [HF ->]]. apply cut_ok_head in HF as [o [outs' [-> [E HF]]]]. rewrite E.
    apply IH. exists outs'. split; [exact HF | cbn [concat]; apply app_assoc].
Qed.

Lemma run_records_fail cut : forall rs acc pre,
  run_records cut rs acc = Some (Fail pre) <->
  exists rs1 r rs2 outs, rs = rs1 ++ r :: rs2 /\ Forall2 (cut_ok cut) rs1 outs
                         /\ cut r = Some RErr /\ pre = acc ++ concat outs.
Proof.
  induction rs as [|r rs IH]; intros acc pre; cbn [run_records]; split.
  - discriminate.
  - intros [rs1 [r [rs2 [outs [E _]]]]]. destruct rs1; discriminate.
  - destruct (cut r) as [[o| | |]|] eqn:E; try discriminate.
    + intros H. apply IH in H as [rs1 [r0 [rs2 [outs [-> [HF [He ->]]]]]]].
      exists (r :: rs1), r0, rs2, (o :: outs).
      repeat split; [constructor; assumption | exact He | cbn [concat]; symmetry; apply app_assoc].
    + (* the first record fails *)
      intros [= <-]. exists [], r, rs, []. cbn. rewrite app_nil_r. repeat split; [constructor | exact E].
  - intros [rs1 [r0 [rs2 [outs [Eq [HF [He ->]]]]]]]. destruct rs1 as [|r1 rs1']; cbn [app] in Eq; injection Eq as <- ->.
    + inversion HF; subst. rewrite He. cbn. rewrite app_nil_r. reflexivity.
    + apply cut_ok_head in HF as [o [outs' [-> [E HF]]]]. rewrite E. apply IH.
      exists rs1', r0, rs2, outs'. repeat split; try assumption. cbn [concat]. apply app_assoc.
Qed.
