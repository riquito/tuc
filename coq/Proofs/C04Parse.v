(** every bounds list the parser produces is free of adjacent fillers, so C04's theorem
    applies to every -M invocation *)
From TucModel Require Import Base.Bytes Model.Bounds Model.BoundsParse Spec.BoundsGrammar
     Proofs.BoundsFacts Proofs.C04 Proofs.C18Iff Proofs.C18Fmt.

Lemma rev_app_single {A} (l : list A) x : rev (l ++ [x]) = x :: rev l.
Proof. rewrite rev_app_distr. reflexivity. Qed.

Lemma naf_bounds_app bs l : no_adjacent_fillers l -> no_adjacent_fillers (map Bound bs ++ l).
Proof. intros H. induction bs as [|b bs IH]; [exact H | exact IH]. Qed.

(** in the items of a format string a filler is followed by a bound: every '{...}' holds at
    least one *)
Lemma fmt_items_naf s its : fmt_items s its -> no_adjacent_fillers its.
Proof.
  induction 1 as [t _|t c rest bs its _ _ _ _ _ Hcsv _ IH]; [destruct t; exact I|].
  pose proof (naf_bounds_app bs its IH) as H.
  destruct bs as [|b bs]; [destruct (csv_text_bounds _ _ Hcsv eq_refl)|]. destruct t; exact H.
Qed.

Lemma parse_bounds_list_naf s l : parse_bounds_list s = Some l -> no_adjacent_fillers l.
Proof.
  unfold parse_bounds_list. destruct s as [|c s]; [intros H; injection H as <-; exact I|].
  destruct (existsb is_brace (c :: s)).
  - intros H. exact (fmt_items_naf _ _ (scan_format_sound _ _ H)).
  - intros H. apply parse_csv_iff in H. destruct H as [bs [_ ->]].
    rewrite <- (app_nil_r (map Bound bs)). apply naf_bounds_app. exact I.
Qed.

(** adjacency of fillers does not depend on is_last flags *)
Lemma naf_same l l' : Forall2 same_but_last l l' -> no_adjacent_fillers l -> no_adjacent_fillers l'.
Proof.
  induction 1 as [|x y l l' Hxy Hl IH]; [trivial|]. intros Hn. specialize (IH (naf_tail _ _ Hn)).
  destruct x as [a|f], y as [b|g]; try contradiction; [exact IH|].
  destruct Hl as [|[a|f'] [b|g'] ? ? Hxy' _]; try contradiction; [exact I | exact IH].
Qed.

Lemma mark_last_naf l : no_adjacent_fillers l -> no_adjacent_fillers (mark_last l).
Proof. apply naf_same, mark_last_same. Qed.

Theorem parse_ublist_naf s u : parse_ublist s = Some u -> no_adjacent_fillers (items u).
Proof.
  unfold parse_ublist. destruct s as [|c s]; [discriminate|].
  destruct (parse_bounds_list (c :: s)) as [l|] eqn:E; [|discriminate].
  intros H. rewrite (proj1 (from_vec_items l u H)). apply mark_last_naf, (parse_bounds_list_naf _ _ E).
Qed.
