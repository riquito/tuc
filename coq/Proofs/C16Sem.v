(** C16: the mini engine against the declarative semantics of Spec/RegexLang.v. *)
From TucModel Require Import Base.Bytes Base.ListX Model.Regex Spec.RegexLang.

Lemma re_lang_cat_inv a b w : re_lang (RCat a b) w ->
  exists u v, w = u ++ v /\ re_lang a u /\ re_lang b v.
Proof. intros H. inversion H; subst. eauto. Qed.

Lemma re_lang_alt_inv a b w : re_lang (RAlt a b) w -> re_lang a w \/ re_lang b w.
Proof. intros H. inversion H; subst; auto. Qed.

Lemma L_plus_one a u : re_lang a u -> re_lang (RPlus a) u.
Proof.
  intros H. rewrite <- (app_nil_r u). change (u ++ []) with (concat [u]).
  constructor; [discriminate | repeat constructor; exact H].
Qed.

Lemma L_plus_cons a u v : re_lang a u -> re_lang (RPlus a) v -> re_lang (RPlus a) (u ++ v).
Proof.
  intros Hu Hv. inversion Hv as [| | | | |? us Hne HF]; subst.
  change (u ++ concat us) with (concat (u :: us)). constructor; [discriminate | constructor; assumption].
Qed.

Lemma re_lang_plus_inv a w : re_lang (RPlus a) w ->
  exists u v, w = u ++ v /\ re_lang a u /\ (v = [] \/ re_lang (RPlus a) v).
Proof.
  intros H. inversion H as [| | | | |? us Hne HF]; subst. destruct HF as [|u us Hu HF]; [contradiction|].
  exists u, (concat us). split; [reflexivity | split; [exact Hu|]].
  destruct us; [left; reflexivity | right; constructor; [discriminate | exact HF]].
Qed.

Lemma re_lang_nonempty r : forall u, re_lang r u -> u <> [].
Proof.
  assert (Happ : forall u v : bytes, u <> [] -> u ++ v <> []).
  { intros u v Hu E. apply app_eq_nil in E. apply Hu, E. }
  induction r as [b|rs|a IHa b IHb|a IHa b IHb|a IHa]; intros u H.
  - inversion H; subst. discriminate.
  - inversion H; subst. discriminate.
  - destruct (re_lang_cat_inv _ _ _ H) as (u1 & v1 & -> & Hu & _). apply Happ, IHa, Hu.
  - destruct (re_lang_alt_inv _ _ _ H); [apply IHa | apply IHb]; assumption.
  - destruct (re_lang_plus_inv _ _ H) as (u1 & v1 & -> & Hu & _). apply Happ, IHa, Hu.
Qed.

(** the loop of RPlus, spelled out so that lemmas can speak about it *)
Definition plus_loop (a : re) (k : bytes -> option bytes) :=
  fix loop (fuel : nat) (s0 : bytes) {struct fuel} : option bytes :=
    match fuel with
    | O => None
    | S f =>
        m a s0 (fun s' =>
                  if Nat.ltb (length s') (length s0) then
                    match loop f s' with
                    | Some x => Some x
                    | None => k s'
                    end
                  else k s')
    end.

Lemma m_plus a s k : m (RPlus a) s k = plus_loop a k (S (length s)) s.
Proof. reflexivity. Qed.

Lemma m_sound r : forall s k rest, m r s k = Some rest ->
  exists u s', s = u ++ s' /\ re_lang r u /\ k s' = Some rest.
Proof.
  induction r as [b|rs|a IHa b IHb|a IHa b IHb|a IHa]; intros s k rest.
  - cbn [m]. destruct s as [|x s']; [discriminate|]. destruct (N.eqb_spec x b) as [->|]; [|discriminate].
    intros H. exists [b], s'. repeat split; [constructor | exact H].
  - cbn [m]. destruct s as [|x s']; [discriminate|]. destruct (in_class rs x) eqn:E; [|discriminate].
    intros H. exists [x], s'. repeat split; [constructor; exact E | exact H].
  - cbn [m]. intros H. destruct (IHa _ _ _ H) as (u & s1 & -> & Hu & H1).
    destruct (IHb _ _ _ H1) as (v & s2 & -> & Hv & H2).
    exists (u ++ v), s2. rewrite <- app_assoc. repeat split; [constructor; assumption | exact H2].
  - cbn [m]. destruct (m a s k) as [x|] eqn:E.
    + intros [= <-]. destruct (IHa _ _ _ E) as (u & s1 & -> & Hu & H1).
      exists u, s1. repeat split; [apply L_alt_l; exact Hu | exact H1].
    + intros H. destruct (IHb _ _ _ H) as (u & s1 & -> & Hu & H1).
      exists u, s1. repeat split; [apply L_alt_r; exact Hu | exact H1].
  - rewrite m_plus. generalize (S (length s)) as fuel. intros fuel. revert s rest.
    induction fuel as [|f IHf]; intros s rest; cbn [plus_loop]; [discriminate|].
    intros H. destruct (IHa _ _ _ H) as (u & s1 & -> & Hu & H1).
    (* after one a: either the loop went on and matched a+ ahead, or the continuation took over *)
    destruct (Nat.ltb (length s1) (length (u ++ s1))); [destruct (plus_loop a k f s1) as [x|] eqn:E|].
    2, 3: exists u, s1; repeat split; [apply L_plus_one, Hu | exact H1].
    injection H1 as <-. destruct (IHf _ _ E) as (v & s2 & -> & Hv & H2).
    exists (u ++ v), s2. rewrite <- app_assoc. repeat split; [apply L_plus_cons; assumption | exact H2].
Qed.

Lemma plus_loop_complete a k s' :
  (forall u, re_lang a u -> forall s' k, k s' <> None -> m a (u ++ s') k <> None) ->
  k s' <> None ->
  forall fuel w, re_lang (RPlus a) w -> length (w ++ s') < fuel -> plus_loop a k fuel (w ++ s') <> None.
Proof.
  intros IHa Hk. induction fuel as [|f IHf]; intros w Hw Hf; [lia|].
  destruct (re_lang_plus_inv _ _ Hw) as (u & v & -> & Hu & Hv).
  cbn [plus_loop]. rewrite <- app_assoc in *. apply IHa; [exact Hu|].
  (* u is not empty, so the text got shorter and the loop is tried on the rest *)
  pose proof (re_lang_nonempty a u Hu) as Hne. rewrite app_length in Hf.
  assert (Hlen : 0 < length u) by (destruct u; [contradiction | cbn; lia]).
  rewrite (proj2 (Nat.ltb_lt _ _)) by (rewrite (app_length u); lia).
  destruct Hv as [->|Hv].
  - cbn [app]. destruct (plus_loop a k f s'); [discriminate | exact Hk].
  - specialize (IHf v Hv ltac:(lia)). destruct (plus_loop a k f (v ++ s')); [discriminate | contradiction].
Qed.

(** the match found is not necessarily the given one: the engine is leftmost-first *)
Lemma m_complete r : forall u, re_lang r u -> forall s' k, k s' <> None -> m r (u ++ s') k <> None.
Proof.
  induction r as [b|rs|a IHa b IHb|a IHa b IHb|a IHa]; intros u Hu s' k Hk.
  - inversion Hu; subst. cbn [app m]. rewrite N.eqb_refl. exact Hk.
  - inversion Hu as [|? ? E| | | |]; subst. cbn [app m]. rewrite E. exact Hk.
  - destruct (re_lang_cat_inv _ _ _ Hu) as (u1 & v1 & -> & H1 & H2). cbn [m]. rewrite <- app_assoc.
    apply IHa; [exact H1|]. apply IHb; assumption.
  - cbn [m]. destruct (m a (u ++ s') k) eqn:E; [discriminate|].
    destruct (re_lang_alt_inv _ _ _ Hu) as [H1|H1]; [|apply IHb; assumption].
    exfalso. exact (IHa u H1 s' k Hk E).
  - rewrite m_plus. apply plus_loop_complete; [exact IHa | exact Hk | exact Hu | lia].
Qed.

Theorem match_len_some r l n : match_len r l = Some n -> n <= length l /\ re_lang r (firstn n l).
Proof.
  unfold match_len. destruct (m r l (fun rest => Some rest)) as [rest|] eqn:E; [|discriminate].
  intros [= <-]. destruct (m_sound r l _ rest E) as (u & s' & -> & Hu & [= ->]).
  rewrite app_length, Nat.add_sub, firstn_app_length.
  split; [lia | exact Hu].
Qed.

Theorem match_len_none r l : match_len r l = None -> forall u s', l = u ++ s' -> ~ re_lang r u.
Proof.
  unfold match_len. destruct (m r l (fun rest => Some rest)) as [rest|] eqn:E; [discriminate|].
  intros _ u s' -> Hu. apply (m_complete r u Hu s' (fun rest => Some rest)); [discriminate | exact E].
Qed.

Theorem re_find_aux_spec r : forall l skip pos, scan_ok r skip pos l (re_find_aux r skip pos l).
Proof.
  induction l as [|x l IH]; intros skip pos; cbn [re_find_aux]; [constructor|].
  destruct skip as [|k]; [|constructor; apply IH].
  destruct (match_len r (x :: l)) as [[|n]|] eqn:E.
  - exfalso. destruct (match_len_some r _ _ E) as [_ H]. cbn in H. exact (re_lang_nonempty r [] H eq_refl).
  - destruct (match_len_some r _ _ E) as [Hle H]. apply so_match; [exact Hle | exact H | apply IH].
  - apply so_none; [exact (match_len_none r _ E) | apply IH].
Qed.
