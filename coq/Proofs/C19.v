(** C19: the model of parse_args and the -M eligibility test decide every option set as the
    statement says.  parse_args is run on a canonical command line [render s] with the presence
    bits left symbolic (Proofs/ArgsFacts.v), which gives its result as a function [parsed] of the
    option set; the decision table is then a finite computation on [parsed]. *)
From TucModel Require Import Base.Bytes Model.Bounds Model.BoundsParse Model.Scan Model.Regex Model.Opt
     Model.CutStr Model.Stream Model.Args Model.Main Spec.OptTable Proofs.ArgsFacts Proofs.C01More.

Definition tok (s : list N) : bytes := s.

(** a canonical command line for an option set; the values are representatives *)
Definition render (s : optset) : args :=
  (match s_mode s with
   | MNone => []
   | MF => [k_f; [49; 44; 50]%N]
   | MC => [k_c; [49; 44; 50]%N]
   | MB => [k_b; [49; 44; 50]%N]
   | ML => [k_l; [49; 44; 50]%N]
   end)
  ++ (if s_d s then [k_d; [45%N]] else [])
  ++ (if s_e s then [k_e; [45%N]] else [])
  ++ (if s_g s then [k_g] else [])
  ++ (if s_p s then [k_p] else [])
  ++ (if s_s s then [k_s] else [])
  ++ (if s_m s then [k_m] else [])
  ++ (if s_j s then [k_j] else [])
  ++ (if s_nojoin s then [k_nojoin] else [])
  ++ (if s_json s then [k_json] else [])
  ++ (if s_r s then [k_r; [47%N]] else [])
  ++ (if s_t s then [k_t; [108%N]] else [])
  ++ (match s_M s with MAbsent => [] | MZero => [k_M; [48%N]] | MOne => [k_M; [49%N]] end).

Definition decide_model (s : optset) : decision :=
  match parse_args (render s) with
  | PExit1 => Reject
  | PInfo => Unspecified
  | PUnknown => Unspecified
  | POpt o =>
      if o_fixed_memory o then
        match stream_opt o with Some _ => Accept | None => Reject end
      else if match o_regex o with Some (RxRe _) => true | _ => false end
              && match o_replace o with None => true | Some _ => false end
              && (o_compress o || o_join o)
           then FailFirstRecord
           else Accept
  end.

Definition decision_eqb (a b : decision) : bool :=
  match a, b with
  | Reject, Reject | FailFirstRecord, FailFirstRecord | Accept, Accept => true
  | Unspecified, _ => true        (* the statement does not determine these *)
  | _, _ => false
  end.

Definition has_mode (m m' : mode) : bool :=
  match m, m' with MF, MF | MC, MC | MB, MB | ML, ML => true | _, _ => false end.

(** the keys that never occur in [render s] are entries that are absent *)
Definition entries (s : optset) : list entry :=
  [ (has_mode MF (s_mode s), [k_f; [49; 44; 50]%N]); (has_mode MC (s_mode s), [k_c; [49; 44; 50]%N]);
    (has_mode MB (s_mode s), [k_b; [49; 44; 50]%N]); (has_mode ML (s_mode s), [k_l; [49; 44; 50]%N]);
    (s_d s, [k_d; [45%N]]); (s_e s, [k_e; [45%N]]); (s_g s, [k_g]); (s_p s, [k_p]); (s_s s, [k_s]);
    (s_m s, [k_m]); (s_j s, [k_j]); (s_nojoin s, [k_nojoin]); (s_json s, [k_json]);
    (s_r s, [k_r; [47%N]]); (s_t s, [k_t; [108%N]]);
    (has_M (s_M s), [k_M; match s_M s with MOne => [49%N] | _ => [48%N] end]);
    (false, [k_h]); (false, [k_V]); (false, [k_z]); (false, [k_fb; [48%N]]) ].

Lemma render_flat s : render s = flat (entries s).
Proof. destruct s as [mo d e g p sd m j nj js r t M]. destruct mo, M; reflexivity. Qed.

Lemma render_nil s : match render s with [] => true | _ => false end = no_option s.
Proof.
  destruct s as [mo d e g p sd m j nj js r t M]. destruct mo; [|reflexivity..].
  destruct d; [reflexivity|]. destruct e; [reflexivity|]. destruct g; [reflexivity|].
  destruct p; [reflexivity|]. destruct sd; [reflexivity|]. destruct m; [reflexivity|].
  destruct j; [reflexivity|]. destruct nj; [reflexivity|]. destruct js; [reflexivity|].
  destruct r; [reflexivity|]. destruct t; [reflexivity|]. destruct M; reflexivity.
Qed.

(** parse_ublist "1,2" *)
Definition bounds12 : ublist :=
  mkL [Bound (mkB (SSome 1) (SSome 1) false None); Bound (mkB (SSome 2) (SSome 2) true None)] (SSome 2).

Definition mode_btype (m : mode) : btype :=
  match m with MNone | MF => BFields | MC => BChars | MB => BBytes | ML => BLines end.
Definition mode_bounds (m : mode) : ublist := match m with MNone => default_bounds | _ => bounds12 end.

Lemma pick_mode_render m :
  let x := parse_ublist [49; 44; 50]%N in
  pick_mode (if has_mode MF m then x else None) (if has_mode MB m then x else None)
            (if has_mode MC m then x else None) (if has_mode ML m then x else None)
  = (mode_btype m, mode_bounds m).
Proof. destruct m; reflexivity. Qed.

(** An option that is not looked up in the given mode (-d outside field mode, -e with -c) is
    left over and rejected at the end. *)
Definition parsed (s : optset) : pres :=
  let bt := mode_btype (s_mode s) in
  let chars := is_c (s_mode s) in
  let repl := if s_json s then Some [ch_comma] else if chars then Some [] else if s_r s then Some [47%N] else None in
  if no_option s then PInfo
  else if match s_M s with MZero => true | _ => false end then PExit1
  else if s_j s && s_nojoin s then PExit1
  else if s_json s && s_nojoin s then PExit1
  else if s_r s && (s_nojoin s || s_json s) then PExit1
  else if chars && s_nojoin s then PExit1
  else if s_json s && is_bl (s_mode s) then PExit1
  else if (s_d s && is_cbl (s_mode s)) || (s_e s && chars) then PExit1
  else POpt (mkOpt (match bt with
                    | BFields => if s_d s then [45%N] else [TAB]
                    | BLines => [LF]
                    | _ => []
                    end)
                   LF (mode_bounds (s_mode s)) bt
                   (s_s s) (s_g s) (s_p s) repl (if s_t s then Some TLeft else None) (s_m s)
                   (s_j s || s_json s || is_some repl || (btype_eqb bt BLines && negb (s_nojoin s)) || chars)
                   (s_json s) (has_M (s_M s)) None
                   (if chars then Some RxChars else if s_e s then Some (RxRe (RByte 45)) else None)).

Lemma if_cond {A} (c c' : bool) (x y y' : A) :
  c = c' -> y = y' -> (if c then x else y) = (if c' then x else y').
Proof. intros -> ->. reflexivity. Qed.

Lemma fixed_M M :
  is_some (if has_M M then parse_usize match M with MOne => [49%N] | _ => [48%N] end else None) = has_M M.
Proof. destruct M; reflexivity. Qed.

(** One look-up of parse_args on [flat es]: the side conditions compute on the keys, by cases on
    the value of -M while it is among the tokens.  [look] does not reduce the goal: [eapply] sees
    the next look-up through the redexes. *)
Ltac look L :=
  eapply L; [reflexivity | first [reflexivity | match goal with M : mval |- _ => destruct M; reflexivity end] |].

(** The flags, the mode and -M stay variables up to the look-up of -e, which splits on character
    mode and on -e. *)
Theorem parse_args_render s : parse_args (render s) = parsed s.
Proof.
  unfold parsed. rewrite <- render_nil, render_flat.
  destruct (flat (entries s)) eqn:F; [reflexivity|]. unfold parse_args. rewrite <- F. clear.
  destruct s as [mo d e g p sd m j nj js r t M].
  cbv beta iota delta [entries s_mode s_d s_e s_g s_p s_s s_m s_j s_nojoin s_json s_r s_t s_M].
  look flag_step. do 4 look value_step.                                 (* -h -f -c -b -l *)
  rewrite pick_mode_render. cbv beta iota zeta delta [fst snd].
  eapply (value_step_if _ (negb (is_cbl mo)));                          (* -d, in field mode *)
    [destruct mo; reflexivity | reflexivity | destruct M; reflexivity |].
  look flag_step. do 2 look value_step.                                 (* -g -r -M *)
  apply if_cond; [destruct M; reflexivity|].                            (* -M 0 *)
  do 3 look flag_step.                                                  (* --json -j --no-join *)
  do 5 (apply if_cond; [destruct mo, js, r; reflexivity|]).             (* the conflict checks *)
  destruct (btype_eqb (mode_btype mo) BChars) eqn:C.
  all: destruct e; try (unfold parse_regex_value; erewrite opt_value_flat by reflexivity).   (* -e *)
  all: apply (if_cond _ false); [destruct mo, js; reflexivity|].        (* --json with a filler *)
  all: do 5 look flag_step.                                             (* -m -s -p -V -z *)
  all: look value_step.                                                 (* -t *)
  all: unfold parse_fallback_value; erewrite opt_value_flat by reflexivity.
  all: rewrite fixed_M; destruct mo; try discriminate C; destruct d; reflexivity.
Qed.

Lemma all_optsets_complete : forall s, In s all_optsets.
Proof.
  assert (Hb : forall b, In b bools) by (intros []; cbn; tauto).
  intros [mo d e g p s m j nj js r t M]. unfold all_optsets.
  apply in_flat_map. exists mo. split; [destruct mo; cbn; tauto|].
  do 11 (apply in_flat_map; eexists; split; [apply Hb|]).
  apply in_map_iff. exists M. split; [reflexivity | destruct M; cbn; tauto].
Qed.

Lemma optset_cases (P : optset -> bool) :
  forallb (fun mo => forallb (fun d => forallb (fun e => forallb (fun g => forallb (fun p => forallb (fun s =>
  forallb (fun m => forallb (fun j => forallb (fun nj => forallb (fun js => forallb (fun r => forallb (fun t =>
  forallb (fun M => P (mkOS mo d e g p s m j nj js r t M)) [MAbsent; MZero; MOne])
  bools) bools) bools) bools) bools) bools) bools) bools) bools) bools) bools) [MNone; MF; MC; MB; ML] = true ->
  forall s, P s = true.
Proof.
  assert (Hb : forall b, In b bools) by (intros []; cbn; tauto).
  intros H [mo d e g p s m j nj js r t M].
  apply (proj1 (forallb_forall _ _)) with (x := mo) in H; [|destruct mo; cbn; tauto].
  do 11 (eapply (proj1 (forallb_forall _ _)) in H; [|apply Hb]).
  apply (proj1 (forallb_forall _ _)) with (x := M) in H; [exact H|destruct M; cbn; tauto].
Qed.

Theorem C19_every_option_set :
  forall s, decision_eqb (decide_spec s) (decide_model s) = true.
Proof.
  unfold decide_model. intros s. rewrite parse_args_render. revert s.
  apply optset_cases. vm_compute. reflexivity.
Qed.

(** "fails on the first record": in fact every record fails *)
Theorem C19_regex_join_without_replacement_fails o line :
  o_regex o <> None -> o_replace o = None -> (o_compress o || o_join o) = true ->
  cut_str o line = Some RErr.
Proof.
  intros Hr Hp Hc. rewrite cut_str_stages. unfold cut_guard, is_re. destruct (o_regex o); [|contradiction]. rewrite Hp, Hc. reflexivity.
Qed.

(** -M eligibility, as documented *)
Theorem C19_stream_eligibility o :
  (exists so, stream_opt o = Some so) <->
  (exists d, o_delim o = [d])
  /\ o_complement o = false /\ o_greedy o = false /\ o_compress o = false /\ o_json o = false
  /\ o_btype o = BFields
  /\ (o_replace o = None \/ exists r, o_replace o = Some [r])
  /\ o_trim o = None /\ o_regex o = None /\ o_only_delimited o = false
  /\ forward_bounds_ok (items (o_bounds o)) = true.
Proof.
  unfold stream_opt. split.
  - intros [so H]. destruct (o_delim o) as [|d [|]]; try discriminate.
    destruct (o_complement o); [discriminate|]. destruct (o_greedy o); [discriminate|].
    destruct (o_compress o); [discriminate|]. destruct (o_json o); [discriminate|].
    destruct (o_btype o); try discriminate. cbn [btype_eqb negb orb] in H.
    destruct (o_replace o) as [[|r [|]]|]; try discriminate;
      (destruct (o_trim o); [discriminate|]); (destruct (o_regex o); [discriminate|]);
      (destruct (o_only_delimited o); [discriminate|]); cbn [orb] in H;
      (destruct (forward_bounds_ok (items (o_bounds o))); [|discriminate]);
      repeat split; eauto.
  - intros [[d Hd] [Hc [Hg [Hp [Hj [Hb [Hr [Ht [Hx [Hs Hf]]]]]]]]]].
    rewrite Hd, Hc, Hg, Hp, Hj, Hb, Ht, Hx, Hs, Hf. cbn [btype_eqb negb orb].
    destruct Hr as [->|[r ->]]; eexists; reflexivity.
Qed.
