(** C10 for -M: the fixed-memory reader is a per-record function mapped over the records of
    the input. *)
From TucModel Require Import Base.Bytes
     Model.CutStr Model.Stream Proofs.C04 Proofs.C03Full.
Local Open Scope Z_scope.

(** [record_terminated] without naming the result: it does not depend on what follows the EOL *)
Lemma record_shape so r its started out :
  bfree (s_eol so) r -> no_adjacent_fillers its ->
  exists res : option bytes,
    forall rest,
      rec_chunks so (Normal its 1 false) started [r ++ s_eol so :: rest] out
      = match res with Some o => RRecord o (push_rest rest []) | None => RFail end.
Proof.
  intros Hf Hn. exists (record_out so (scan_chunk so its 1 false [] (r ++ [s_eol so]) out)).
  intros rest. apply record_terminated; assumption.
Qed.

(** what -M prints for one record *)
Definition stream_cut (so : sopt) (r : bytes) : option rres :=
  Some (match rec_chunks so (Normal (s_items so) 1 false) false [r ++ [s_eol so]] [] with
        | RRecord o _ => ROk o
        | RFail => RErr
        | _ => RPanic
        end).

Lemma stream_cut_record so r :
  no_adjacent_fillers (s_items so) -> bfree (s_eol so) r -> stream_cut so r = Some (stream_record so r).
Proof.
  intros Hn Hf. unfold stream_cut, stream_record.
  rewrite (record_terminated so r (s_items so) 1 [] false [] [] Hf Hn).
  destruct (record_out so _); reflexivity.
Qed.

Corollary stream_whole_per_record so input :
  no_adjacent_fillers (s_items so) ->
  Some (run_stream_whole so input) = run_records (stream_cut so) (records (s_eol so) input) [].
Proof.
  intros Hn. apply run_stream_records; [exact Hn|].
  apply Forall_forall. intros r _. apply stream_cut_record, Hn.
Qed.
