(** C12: no index in the general path can go out of range, and range expansion builds at most
    one bound per part, whatever the value of an index. *)
From TucModel Require Import Base.Bytes Model.Bounds Model.Scan Model.Opt Model.CutBytes
     Model.CutStr Proofs.BoundsFacts Proofs.C06 Proofs.ScanSplit.

Fixpoint wf_ms (start : nat) (ms : list mtch) (len : nat) : Prop :=
  match ms with
  | [] => start <= len
  | m :: ms' => start <= fst m /\ fst m <= snd m /\ wf_ms (snd m) ms' len
  end.

Lemma wf_ms_le ms : forall s len, wf_ms s ms len -> s <= len.
Proof.
  induction ms as [|m ms IH]; intros s len H; cbn in H; [exact H|].
  destruct H as [A [B C]]. apply IH in C. lia.
Qed.

Lemma wf_ms_weaken ms : forall s s' n n', s' <= s -> n <= n' -> wf_ms s ms n -> wf_ms s' ms n'.
Proof.
  induction ms as [|m ms IH]; intros s s' n n' Hs Hn; cbn [wf_ms]; [lia|].
  intros [A [B C]]. split; [lia|]. split; [exact B|]. eapply IH; [apply Nat.le_refl | exact Hn | exact C].
Qed.

Definition table_ok (fields : list mtch) (len : nat) : Prop :=
  forall i j a z, i <= j -> nth_error fields i = Some a -> nth_error fields j = Some z ->
                  fst a <= snd z /\ snd z <= len.

Lemma gaps_table_ok ms len : forall start, wf_ms start ms len -> table_ok (gaps_from start ms len) len.
Proof.
  induction ms as [|m ms IH]; intros start Hwf i j a z Hij Ha Hz; cbn [gaps_from wf_ms] in *.
  - destruct i as [|[|i]]; [|discriminate..]. destruct j as [|[|j]]; [|discriminate..].
    injection Ha as <-. injection Hz as <-. cbn [fst snd]. lia.
  - destruct Hwf as [H1 [H2 H3]]. specialize (IH _ H3).
    destruct i as [|i]; cbn [nth_error] in Ha.
    + injection Ha as <-. cbn [fst]. destruct j as [|j]; cbn [nth_error] in Hz.
      * injection Hz as <-. cbn [snd]. pose proof (wf_ms_le _ _ _ H3). lia.
      * (* the table that follows starts at [snd m] *)
        destruct (gaps_from_cons (snd m) ms len) as [e0 [gs E]]. rewrite E in IH, Hz.
        destruct (IH 0 j (snd m, e0) z (Nat.le_0_l j) eq_refl Hz) as [P1 P2]. cbn [fst] in P1. lia.
    + destruct j as [|j]; [lia|]. exact (IH i j a z (le_S_n _ _ Hij) Ha Hz).
Qed.

Lemma fields_table_ok ms line : wf_ms 0 ms (length line) -> table_ok (fields_of_matches ms line) (length line).
Proof.
  intros H. destruct line as [|c l]; [intros [|i] j a z _ Ha; discriminate|].
  apply gaps_table_ok, H.
Qed.

Lemma find_iter_wf d : forall l skip pos s n, s <= pos + skip <= n -> pos + length l <= n ->
  wf_ms s (map (fun p => (p, p + length d)) (find_iter_aux d skip pos l)) n.
Proof.
  induction l as [|x l IH]; intros skip pos s n Hs Hl; cbn [find_iter_aux].
  - destruct skip; [destruct d|]; cbn [map wf_ms fst snd length]; lia.
  - cbn [length] in Hl. destruct skip as [|k]; [|apply IH; lia].
    destruct (starts_with d (x :: l)) eqn:E; [|apply IH; lia].
    apply starts_with_length in E. cbn [length] in E. cbn [map wf_ms fst snd].
    split; [lia|]. split; [lia|]. apply IH; lia.
Qed.

Lemma lit_matches_wf d line : wf_ms 0 (lit_matches d line) (length line).
Proof. apply find_iter_wf; lia. Qed.

Lemma merge_from_wf len : forall ms cur start,
  start <= fst cur -> fst cur <= snd cur -> wf_ms (snd cur) ms len ->
  wf_ms start (merge_adjacent_from cur ms) len.
Proof.
  induction ms as [|m ms IH]; intros cur start H1 H2 Hw; cbn [merge_adjacent_from].
  - repeat split; assumption.
  - destruct Hw as [A [B C]]. destruct (Nat.eqb (fst m) (snd cur)).
    + apply IH; cbn [fst snd]; [exact H1 | lia | exact C].
    + split; [exact H1|]. split; [exact H2|]. apply IH; [exact A | exact B | exact C].
Qed.

Lemma merge_adjacent_wf ms len : wf_ms 0 ms len -> wf_ms 0 (merge_adjacent ms) len.
Proof.
  destruct ms as [|m ms]; [intros H; exact H|].
  intros [A [B C]]. apply merge_from_wf; assumption.
Qed.

(** [piece] in [out_loop]: what one bound contributes *)
Definition out_piece (o : opt) (line : bytes) (fields : list mtch) (b : ubound) : rres :=
  match try_into_range b (length fields) with
  | Some (s, e) =>
      match range_start fields s, range_end fields (e - 1) with
      | Some a, Some z =>
          if Nat.leb a z && Nat.leb z (length line) then
            match maybe_replace o (slice line a z) with
            | Some t => match emit_part o t with Some p => ROk p | None => RErr end
            | None => RHang
            end
          else RPanic
      | _, _ => RPanic
      end
  | None =>
      match fallback_for b (o_fallback o) with
      | Some f => match emit_part o f with Some p => ROk p | None => RErr end
      | None => RErr
      end
  end.

Definition out_rep (o : opt) : bytes := match o_replace o with Some nd => nd | None => o_delim o end.

Definition out_sep (o : opt) (b : ubound) : bytes := if o_join o && negb (blast b) then out_rep o else [].

Lemma out_loop_cons_bound o line fields b bs :
  out_loop o line fields (Bound b :: bs)
  = match out_piece o line fields b with
    | ROk p => match out_loop o line fields bs with ROk r => ROk (p ++ out_sep o b ++ r) | e => e end
    | e => e
    end.
Proof.
  cbn [out_loop]. fold (out_piece o line fields b). destruct (out_piece o line fields b); reflexivity.
Qed.

Lemma emit_part_plain o t : o_json o = false -> emit_part o t = Some t.
Proof. intros Hj. unfold emit_part. rewrite Hj. reflexivity. Qed.

Lemma out_piece_resolved o line fields b s e :
  table_ok fields (length line) -> bound_nz b -> try_into_range b (length fields) = Some (s, e) ->
  exists a z, nth_error fields s = Some a /\ nth_error fields (e - 1) = Some z /\ s < e <= length fields
    /\ out_piece o line fields b
       = match maybe_replace o (slice line (fst a) (snd z)) with
         | Some t => match emit_part o t with Some p => ROk p | None => RErr end
         | None => RHang
         end.
Proof.
  intros Ht Hnz E. destruct (try_into_range_some b _ s e Hnz E) as [_ [_ [_ Hse]]].
  destruct (nth_error fields s) as [a|] eqn:Ea; [|apply nth_error_None in Ea; lia].
  destruct (nth_error fields (e - 1)) as [z|] eqn:Ez; [|apply nth_error_None in Ez; lia].
  exists a, z. repeat split; try reflexivity; try lia.
  destruct (Ht s (e - 1) a z ltac:(lia) Ea Ez) as [P1 P2].
  unfold out_piece, range_start, range_end. rewrite E, Ea, Ez.
  rewrite (proj2 (Nat.leb_le _ _) P1), (proj2 (Nat.leb_le _ _) P2). reflexivity.
Qed.

Lemma out_piece_unresolved o line fields b :
  try_into_range b (length fields) = None ->
  out_piece o line fields b
  = match fallback_for b (o_fallback o) with
    | Some f => match emit_part o f with Some p => ROk p | None => RErr end
    | None => RErr
    end.
Proof. intros E. unfold out_piece. rewrite E. reflexivity. Qed.

Lemma out_piece_cases o line fields b :
  table_ok fields (length line) -> bound_nz b ->
  (exists p, out_piece o line fields b = ROk p) \/ out_piece o line fields b = RErr
  \/ (out_piece o line fields b = RHang /\ exists t, maybe_replace o t = None).
Proof.
  intros Ht Hnz. destruct (try_into_range b (length fields)) as [[s e]|] eqn:E.
  - destruct (out_piece_resolved o line fields b s e Ht Hnz E) as [a [z [_ [_ [_ ->]]]]].
    destruct (maybe_replace o (slice line (fst a) (snd z))) as [t|] eqn:Em; [|right; right; eauto].
    destruct (emit_part o t); eauto.
  - rewrite (out_piece_unresolved o line fields b E).
    destruct (fallback_for b (o_fallback o)) as [f|]; [destruct (emit_part o f)|]; eauto.
Qed.

(** the loop ends with output or with the first piece that is not output *)
Lemma out_loop_pieces (Q : rres -> Prop) o line fields bs :
  (forall x, Q (ROk x)) ->
  Forall (fun x => match x with Bound b => Q (out_piece o line fields b) | Filler _ => True end) bs ->
  Q (out_loop o line fields bs).
Proof.
  intros HQ H. induction H as [|x bs Hx _ IH]; [apply HQ|]. destruct x as [b|f].
  - rewrite out_loop_cons_bound. destruct (out_piece o line fields b); try exact Hx.
    destruct (out_loop o line fields bs); try exact IH. apply HQ.
  - cbn [out_loop]. destruct (out_loop o line fields bs); try exact IH. apply HQ.
Qed.

Lemma out_loop_table_no_panic o line fields bs :
  table_ok fields (length line) -> Forall item_nz bs -> out_loop o line fields bs <> RPanic.
Proof.
  intros Ht Hnz. apply out_loop_pieces; [discriminate|].
  eapply Forall_impl; [|exact Hnz]. intros [b|f] Hx; [|exact I].
  destruct (out_piece_cases o line fields b Ht Hx) as [[p ->]|[->|[-> _]]]; discriminate.
Qed.

Theorem out_loop_no_panic o line ms bs :
  line <> [] -> wf_ms 0 ms (length line) -> Forall item_nz bs ->
  out_loop o line (fields_of_matches ms line) bs <> RPanic.
Proof. intros _ Hwf. apply out_loop_table_no_panic, fields_table_ok, Hwf. Qed.

(** range expansion allocates at most one bound per part, whatever the index values *)
Theorem unpack_cost b n : bound_nz b -> length (unpack_bound b n) <= Nat.max 1 n.
Proof.
  intros Hnz. unfold unpack_bound. destruct (try_into_range b n) as [[s e]|] eqn:E; [|cbn [length]; lia].
  destruct (try_into_range_some b n s e Hnz E) as [_ [_ [_ Hse]]].
  assert (H : forall st c, length (singles_from st c) = c)
    by (intros st c; revert st; induction c; intros; cbn; [|rewrite IHc]; reflexivity).
  rewrite H. lia.
Qed.
