(** Appending an ASCII byte (a record terminator) does not change whether a text is valid UTF-8. *)
From TucModel Require Import Base.Bytes Model.Utf8 Proofs.C07Utf8.
Local Open Scope N_scope.

Lemma ascii_scalar (c : byte) : c < 128 -> scalar [c].
Proof. intros H. unfold scalar, utf8_head_len. rewrite (proj2 (N.ltb_lt c 128) H). reflexivity. Qed.

Theorem utf8_valid_snoc (l : bytes) (c : byte) : c < 128 -> utf8_valid (l ++ [c]) = utf8_valid l.
Proof.
  intros Hc. apply eq_iff_eq_true. rewrite !utf8_valid_iff. split; intros (cs & H1 & H2).
  - (* the last character ends with c, so it is [c] alone: its other bytes are at least 128 *)
    destruct (exists_last (l := cs)) as (cs0 & s & ->); [intros ->; destruct l; discriminate|].
    apply Forall_app in H2. destruct H2 as [Hs0 Hs]. inversion Hs as [|? ? Hsc _]; subst.
    destruct (scalar_shape s Hsc) as (Hne & _ & Ht). destruct (exists_last Hne) as (s0 & z & ->).
    rewrite concat_app in H1. cbn [concat] in H1. rewrite app_nil_r, app_assoc in H1.
    apply app_inj_tail in H1. destruct H1 as [<- ->]. destruct s0 as [|y s0].
    + exists cs0. split; [symmetry; apply app_nil_r | exact Hs0].
    + cbn [app tl] in Ht. apply Forall_app in Ht. destruct Ht as [_ Ht]. inversion Ht; subst. lia.
  - exists (cs ++ [[c]]). split.
    + rewrite concat_app, H1. cbn [concat]. rewrite app_nil_r. reflexivity.
    + apply Forall_app. split; [exact H2 | constructor; [apply ascii_scalar, Hc | constructor]].
Qed.
