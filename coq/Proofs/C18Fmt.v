(** C18, format strings: the scanner accepts exactly the language [fmt_items] of
    Spec/BoundsGrammar.v and builds the items the grammar assigns; the documented language
    [fmt_doc] (no braces inside a bound) is included in it. *)
From TucModel Require Import Base.Bytes Base.ListX Model.Bounds Model.BoundsParse Spec.BoundsGrammar
     Proofs.BoundsFacts Proofs.C18Iff.

Lemma is_brace_false x : x <> ch_lbrace -> x <> ch_rbrace -> is_brace x = false.
Proof. intros A B. unfold is_brace. apply orb_false_iff. split; apply N.eqb_neq; assumption. Qed.

Lemma scan_plain_byte x s inside cur acc : x <> ch_lbrace -> x <> ch_rbrace ->
  scan_format (x :: s) inside cur acc = scan_format s inside (cur ++ [x]) acc.
Proof.
  intros A B. cbn [scan_format]. rewrite (is_brace_false x A B).
  apply N.eqb_neq in A. apply N.eqb_neq in B. rewrite A, B.
  destruct s; [|rewrite andb_false_r]; reflexivity.
Qed.

Lemma scan_lb_pair s inside cur acc :
  scan_format (ch_lbrace :: ch_lbrace :: s) inside cur acc = scan_format s inside (cur ++ [ch_lbrace; ch_lbrace]) acc.
Proof. destruct inside; reflexivity. Qed.

Lemma scan_rb_pair_outside s cur acc :
  scan_format (ch_rbrace :: ch_rbrace :: s) false cur acc = scan_format s false (cur ++ [ch_rbrace; ch_rbrace]) acc.
Proof. reflexivity. Qed.

Lemma scan_rb_pair_inside s cur acc :
  Nat.even (run_len ch_rbrace s) = true ->
  scan_format (ch_rbrace :: ch_rbrace :: s) true cur acc = scan_format s true (cur ++ [ch_rbrace; ch_rbrace]) acc.
Proof.
  intros Hev. cbn [scan_format].
  change (run_len ch_rbrace (ch_rbrace :: ch_rbrace :: s)) with (S (S (run_len ch_rbrace s))).
  rewrite Nat.odd_succ, Nat.even_succ, <- Nat.negb_even, Hev. reflexivity.
Qed.

Lemma scan_close rest cur acc :
  Nat.even (run_len ch_rbrace rest) = true ->
  scan_format (ch_rbrace :: rest) true cur acc
  = match parse_bounds_csv (split_on ch_comma cur) with
    | None => None
    | Some bs => scan_format rest false [] (acc ++ bs)
    end.
Proof.
  intros Hev. cbn [scan_format].
  change (run_len ch_rbrace (ch_rbrace :: rest)) with (S (run_len ch_rbrace rest)).
  rewrite Nat.odd_succ, Hev. destruct rest; [reflexivity|]. rewrite andb_false_r. reflexivity.
Qed.

Lemma scan_open s cur acc : (forall l, s <> ch_lbrace :: l) ->
  scan_format (ch_lbrace :: s) false cur acc = scan_format s true [] (push_filler cur acc).
Proof.
  intros Hn. cbn [scan_format]. destruct s as [|y l]; [reflexivity|].
  destruct (N.eqb_spec ch_lbrace y) as [<-|_]; [destruct (Hn l eq_refl) | reflexivity].
Qed.

Lemma scan_lone_rbrace s cur acc : (forall l, s <> ch_rbrace :: l) ->
  scan_format (ch_rbrace :: s) false cur acc = None.
Proof.
  intros Hn. cbn [scan_format]. destruct s as [|y l]; [reflexivity|].
  destruct (N.eqb_spec ch_rbrace y) as [<-|_]; [destruct (Hn l eq_refl) | reflexivity].
Qed.

Lemma scan_lbrace_inside s cur acc : (forall l, s <> ch_lbrace :: l) ->
  scan_format (ch_lbrace :: s) true cur acc = None.
Proof.
  intros Hn. cbn [scan_format]. destruct s as [|y l]; [reflexivity|].
  destruct (N.eqb_spec ch_lbrace y) as [<-|_]; [destruct (Hn l eq_refl) | reflexivity].
Qed.

Lemma scan_text_outside t : raw_text t -> forall s cur acc,
  scan_format (t ++ s) false cur acc = scan_format s false (cur ++ t) acc.
Proof.
  induction 1 as [|x t A B Ht IH|t Ht IH|t Ht IH]; intros s cur acc; cbn [app].
  - rewrite app_nil_r. reflexivity.
  - rewrite scan_plain_byte by assumption. rewrite IH, <- app_assoc. reflexivity.
  - rewrite scan_lb_pair, IH, <- app_assoc. reflexivity.
  - rewrite scan_rb_pair_outside, IH, <- app_assoc. reflexivity.
Qed.

Lemma no_last_app (p t : bytes) c : (forall x, p ++ t <> x ++ [c]) -> forall y, t <> y ++ [c].
Proof. intros H y ->. apply (H (p ++ y)), app_assoc. Qed.

(** the run of '}' at the head of literal text lies within it, in pairs, unless the text is empty
    or ends with '}': then the run may go on into what follows *)
Lemma raw_run_even t : raw_text t -> forall tail,
  (t = [] \/ (exists x, t = x ++ [ch_rbrace]) -> Nat.even (run_len ch_rbrace tail) = true) ->
  Nat.even (run_len ch_rbrace (t ++ tail)) = true.
Proof.
  induction 1 as [|x t A B Ht IH|t Ht IH|t Ht IH]; intros tail Htail; cbn [app run_len].
  - apply Htail. left. reflexivity.
  - apply N.eqb_neq in B. rewrite B. reflexivity.
  - reflexivity.
  - rewrite N.eqb_refl. cbn [Nat.even]. apply IH. intros Hend. apply Htail. right.
    destruct Hend as [->|[x ->]]; [exists [ch_rbrace] | exists (ch_rbrace :: ch_rbrace :: x)]; reflexivity.
Qed.

Lemma scan_text_inside c : raw_text c -> forall rest cur acc,
  (forall x, c <> x ++ [ch_rbrace]) ->
  Nat.even (run_len ch_rbrace rest) = true ->
  scan_format (c ++ ch_rbrace :: rest) true cur acc
  = match parse_bounds_csv (split_on ch_comma (cur ++ c)) with
    | None => None
    | Some bs => scan_format rest false [] (acc ++ bs)
    end.
Proof.
  induction 1 as [|x t A B Ht IH|t Ht IH|t Ht IH]; intros rest cur acc Hlast Hev; cbn [app].
  - rewrite app_nil_r. apply scan_close, Hev.
  - rewrite scan_plain_byte by assumption.
    rewrite IH; [rewrite <- app_assoc; reflexivity | exact (no_last_app [x] t _ Hlast) | exact Hev].
  - rewrite scan_lb_pair.
    rewrite IH; [rewrite <- app_assoc; reflexivity | exact (no_last_app [_; _] t _ Hlast) | exact Hev].
  - pose proof (no_last_app [_; _] t _ Hlast) as Hl'. rewrite scan_rb_pair_inside.
    + rewrite IH; [rewrite <- app_assoc; reflexivity | exact Hl' | exact Hev].
    + apply (raw_run_even t Ht). intros [->|[y E]]; [destruct (Hlast [ch_rbrace] eq_refl) | destruct (Hl' y E)].
Qed.

Lemma push_filler_is t acc : push_filler t acc = acc ++ filler_of t.
Proof. unfold push_filler, filler_of. destruct t; [rewrite app_nil_r|]; reflexivity. Qed.

Theorem scan_format_complete s its : fmt_items s its ->
  forall acc, scan_format s false [] acc = Some (acc ++ its).
Proof.
  induction 1 as [t Ht|t c rest bs its Ht Hc Hhd Hlast Hev Hcsv Hrest IH]; intros acc.
  - rewrite <- (app_nil_r t) at 1. rewrite (scan_text_outside t Ht). cbn [app scan_format].
    apply f_equal. apply push_filler_is.
  - rewrite (scan_text_outside t Ht). cbn [app].
    assert (Hn : forall l, c ++ ch_rbrace :: rest <> ch_lbrace :: l).
    { destruct c; [discriminate|]. intros l E. injection E as -> _. exact (Hhd _ eq_refl). }
    rewrite (scan_open _ t acc Hn), (scan_text_inside c Hc rest [] _ Hlast Hev). cbn [app].
    rewrite (proj1 (csv_parse c bs) Hcsv). rewrite IH, push_filler_is, <- !app_assoc. reflexivity.
Qed.

Lemma raw_text_app a b : raw_text a -> raw_text b -> raw_text (a ++ b).
Proof.
  induction 1 as [|x t A B Ht IH|t Ht IH|t Ht IH]; intros Hb; cbn [app];
    [exact Hb | apply rx_byte; auto | apply rx_lb; auto | apply rx_rb; auto].
Qed.

Lemma head_dec (c : byte) s : (exists l, s = c :: l) \/ (forall l, s <> c :: l).
Proof.
  destruct s as [|y l]; [right; discriminate|].
  destruct (N.eqb_spec y c) as [->|N]; [left; eauto | right; congruence].
Qed.

Definition outside_shape (s : bytes) : Prop :=
  exists t, raw_text t /\ (s = t \/ exists s1, s = t ++ ch_lbrace :: s1 /\ forall l, s1 <> ch_lbrace :: l).

Lemma outside_shape_app p s : raw_text p -> outside_shape s -> outside_shape (p ++ s).
Proof.
  intros Hp [t [Ht H]]. exists (p ++ t). split; [apply raw_text_app; assumption|].
  destruct H as [->|[s1 [-> Hn]]]; [left; reflexivity | right].
  exists s1. rewrite app_assoc. split; [reflexivity | exact Hn].
Qed.

Lemma scan_outside_shape s : forall cur acc its,
  scan_format s false cur acc = Some its -> outside_shape s.
Proof.
  (* IH2 is for the tail of the tail: what is left after a doubled brace *)
  induction s as [|x s IH IH2] using list_ind_tl; intros cur acc its H.
  { exists []. split; [constructor | left; reflexivity]. }
  destruct (N.eqb_spec x ch_lbrace) as [->|Hl]; [|destruct (N.eqb_spec x ch_rbrace) as [->|Hr]].
  - destruct (head_dec ch_lbrace s) as [[l ->]|Hn].
    + rewrite scan_lb_pair in H. exact (outside_shape_app [_; _] l (rx_lb [] rx_nil) (IH2 _ _ _ H)).
    + exists []. split; [constructor | right; exists s; split; [reflexivity | exact Hn]].
  - destruct (head_dec ch_rbrace s) as [[l ->]|Hn]; [|rewrite scan_lone_rbrace in H by exact Hn; discriminate].
    rewrite scan_rb_pair_outside in H. exact (outside_shape_app [_; _] l (rx_rb [] rx_nil) (IH2 _ _ _ H)).
  - rewrite scan_plain_byte in H by assumption.
    exact (outside_shape_app [x] s (rx_byte x [] Hl Hr rx_nil) (IH _ _ _ H)).
Qed.

(** inside a bound, [cur] being the text since its opening brace: literal text up to a closing
    brace that is the first of an odd run, so that the text before it does not end with '}' *)
Definition inside_shape (cur s : bytes) : Prop :=
  exists c rest, s = c ++ ch_rbrace :: rest /\ raw_text c
                 /\ (forall x, cur ++ c <> x ++ [ch_rbrace]) /\ Nat.even (run_len ch_rbrace rest) = true.

Lemma inside_shape_app cur p s : raw_text p -> inside_shape (cur ++ p) s -> inside_shape cur (p ++ s).
Proof.
  intros Hp [c [rest [-> [Hc [Hlast Hev]]]]]. exists (p ++ c), rest. rewrite <- app_assoc in Hlast.
  repeat split; [apply app_assoc | apply raw_text_app; assumption | exact Hlast | exact Hev].
Qed.

Lemma run_len_odd c s : Nat.even (run_len c s) = false ->
  exists l, s = c :: l /\ Nat.even (run_len c l) = true.
Proof.
  destruct s as [|y l]; [discriminate|]. cbn [run_len].
  destruct (N.eqb_spec y c) as [->|_]; [|discriminate].
  rewrite Nat.even_succ, <- Nat.negb_even. intros H. exists l. split; [reflexivity|].
  destruct (Nat.even (run_len c l)); [reflexivity | discriminate].
Qed.

(** the hypothesis: when the text so far ends with '}' (the second of an escaped pair), an even run of
    '}' follows, since the pair was taken as escaped only for that reason *)
Lemma scan_inside_shape s : forall cur acc its,
  (forall y, cur = y ++ [ch_rbrace] -> Nat.even (run_len ch_rbrace s) = true) ->
  scan_format s true cur acc = Some its -> inside_shape cur s.
Proof.
  induction s as [|x s IH IH2] using list_ind_tl; intros cur acc its Hpar H; [discriminate|].
  assert (Hpar' : forall p q z, z <> ch_rbrace ->
            forall y, cur ++ p ++ [z] = y ++ [ch_rbrace] -> Nat.even (run_len ch_rbrace q) = true).
  { intros p q z Hz y E. rewrite app_assoc in E. apply app_inj_tail in E. destruct E as [_ E]. contradiction. }
  destruct (N.eqb_spec x ch_lbrace) as [->|Hl]; [|destruct (N.eqb_spec x ch_rbrace) as [->|Hr]].
  - destruct (head_dec ch_lbrace s) as [[l ->]|Hn]; [|rewrite scan_lbrace_inside in H by exact Hn; discriminate].
    rewrite scan_lb_pair in H. apply (inside_shape_app cur [_; _] l (rx_lb [] rx_nil)).
    exact (IH2 _ _ _ (Hpar' [ch_lbrace] l ch_lbrace ltac:(discriminate)) H).
  - destruct (Nat.even (run_len ch_rbrace s)) eqn:Ev.
    + (* an odd run: this brace closes the bound *)
      exists [], s. rewrite app_nil_r. repeat split; [constructor | | exact Ev].
      intros y E. specialize (Hpar y E). cbn [run_len] in Hpar.
      rewrite N.eqb_refl, Nat.even_succ, <- Nat.negb_even, Ev in Hpar. discriminate.
    + (* an even run: an escaped pair *)
      destruct (run_len_odd _ _ Ev) as [l [-> Hev]]. rewrite (scan_rb_pair_inside l cur acc Hev) in H.
      exact (inside_shape_app cur [_; _] l (rx_rb [] rx_nil) (IH2 _ _ _ (fun _ _ => Hev) H)).
  - rewrite scan_plain_byte in H by assumption.
    exact (inside_shape_app cur [x] s (rx_byte x [] Hl Hr rx_nil) (IH _ _ _ (Hpar' [] s x Hr) H)).
Qed.

(** soundness: if the scanner succeeds the text has the shape the grammar asks for; then the
    equations used for completeness say what was built *)
Lemma scan_sound_acc s : forall acc its,
  scan_format s false [] acc = Some its -> exists its', fmt_items s its' /\ its = acc ++ its'.
Proof.
  induction s as [s IH] using list_length_ind. intros acc its H.
  destruct (scan_outside_shape s _ _ _ H) as [t [Ht [->|[s1 [-> Hn]]]]].
  - rewrite <- (app_nil_r t), (scan_text_outside t Ht) in H. injection H as <-.
    exists (filler_of t). split; [apply fi_end, Ht | apply push_filler_is].
  - rewrite (scan_text_outside t Ht), (scan_open s1 _ acc Hn) in H. cbn [app] in H.
    destruct (scan_inside_shape s1 [] _ its ltac:(intros [|] E; discriminate) H)
      as [c [rest [-> [Hc [Hlast Hev]]]]].
    rewrite (scan_text_inside c Hc rest [] _ Hlast Hev) in H. cbn [app] in H.
    destruct (parse_bounds_csv (split_on ch_comma c)) as [l0|] eqn:Ecsv; [|discriminate].
    destruct (proj1 (parse_csv_iff _ l0) Ecsv) as [bs [_ ->]].
    destruct (IH rest ltac:(rewrite !app_length; cbn [length]; rewrite app_length; cbn [length]; lia) _ _ H)
      as [its' [Hf ->]].
    exists (filler_of t ++ map Bound bs ++ its'). split; [|rewrite push_filler_is, <- !app_assoc; reflexivity].
    apply fi_bound; try assumption; [|apply csv_parse, Ecsv].
    intros x ->. exact (Hn _ eq_refl).
Qed.

Theorem scan_format_sound s its : scan_format s false [] [] = Some its -> fmt_items s its.
Proof. intros H. destruct (scan_sound_acc s [] its H) as [its' [F ->]]. exact F. Qed.

Theorem scan_format_iff s its : scan_format s false [] [] = Some its <-> fmt_items s its.
Proof.
  split; [apply scan_format_sound|]. intros H. rewrite (scan_format_complete s its H []). reflexivity.
Qed.

Lemma brace_free_raw c : brace_free c -> raw_text c.
Proof.
  induction 1 as [|x c [A B] Hc IH]; [constructor | apply rx_byte; assumption].
Qed.

Lemma fmt_doc_run s its : fmt_doc s its -> Nat.even (run_len ch_rbrace s) = true.
Proof.
  intros H. destruct H as [t Ht|t c rest bs its Ht Hc Hcsv Hrest].
  - rewrite <- (app_nil_r t). apply (raw_run_even t Ht). reflexivity.
  - apply (raw_run_even t Ht). reflexivity.
Qed.

Theorem doc_in_language s its : fmt_doc s its -> fmt_items s its.
Proof.
  induction 1 as [t Ht|t c rest bs its Ht Hc Hcsv Hrest IH].
  - apply fi_end, Ht.
  - apply fi_bound; try assumption.
    + apply brace_free_raw, Hc.
    + intros x E. subst c. inversion Hc as [|? ? [A _] _]; subst. apply A. reflexivity.
    + intros x E. subst c. apply Forall_app in Hc. destruct Hc as [_ Hc].
      inversion Hc as [|? ? [_ B] _]; subst. apply B. reflexivity.
    + apply (fmt_doc_run rest its Hrest).
Qed.

Corollary documented_format_accepted s its : fmt_doc s its -> scan_format s false [] [] = Some its.
Proof. intros H. apply scan_format_iff, doc_in_language, H. Qed.

(** the whole of UserBoundsList::from_str on an argument that holds a brace *)
Theorem parse_ublist_format_iff s u :
  existsb is_brace s = true ->
  (parse_ublist s = Some u <->
   exists its, fmt_items s its /\ bounds_only its <> []
               /\ from_vec its = Some u).
Proof.
  intros Hb. unfold parse_ublist, parse_bounds_list. destruct s as [|c s']; [discriminate|]. rewrite Hb.
  split.
  - destruct (scan_format (c :: s') false [] []) as [l|] eqn:E; [|discriminate].
    intros H. exists l. split; [apply scan_format_sound, E|].
    split; [exact (proj2 (from_vec_items l u H)) | exact H].
  - intros [its [F [_ H]]]. rewrite (proj2 (scan_format_iff _ _) F). exact H.
Qed.
