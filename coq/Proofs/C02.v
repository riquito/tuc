(** C02: the fast lane prints what the general path prints.  Its early stop never changes what
    a bound resolves to; its table of field starts, whole or cut short by the early stop, names
    the same slices as the fields table of the general path. *)
From TucModel Require Import Base.Bytes Base.ListX Model.Bounds Model.Scan Model.Opt Model.CutBytes
     Model.CutStr Model.FastLane Proofs.BoundsFacts Proofs.C06 Proofs.ScanSplit
     Proofs.C12 Proofs.C01More.
Local Open Scope Z_scope.

Definition bound_within (L : Z) (b : ubound) : Prop :=
  match bl b with SCont => True | SSome l => 0 < l end
  /\ match br b with SCont => False | SSome r => 0 < r <= L end.

Definition items_within (L : Z) (l : list bof) : Prop :=
  Forall (fun x => match x with Bound b => bound_within L b | Filler _ => True end) l.

Theorem early_stop_resolve L n b :
  bound_within (Z.of_nat L) b -> (L <= n)%nat ->
  try_into_range b L = try_into_range b n.
Proof.
  intros [Hl Hr] Hn. destruct (br b) as [r|] eqn:Er; [|contradiction]. destruct (bl b) as [l|] eqn:El.
  - rewrite (try_into_range_pos b l r L El Er), (try_into_range_pos b l r n El Er) by lia.
    rewrite (proj2 (Z.leb_le r (Z.of_nat L))), (proj2 (Z.leb_le r (Z.of_nat n))) by lia.
    (* l <= r <= L <= n, or the range is reversed on both *)
    destruct (Z.leb_spec l r); [|rewrite !andb_false_r; reflexivity].
    rewrite !(proj2 (Z.leb_le l (Z.of_nat _))) by lia. reflexivity.
  - (* an open left side: [0, r) on both *)
    assert (E : forall N, r <= N -> (N <? r) || (r <? - N) = false)
      by (intros N HN; apply orb_false_iff; split; apply Z.ltb_ge; lia).
    unfold try_into_range. rewrite El, Er, !resolve_right_index, !E, !pos_of_pos by lia. reflexivity.
Qed.

Definition all_pos (bs : list ubound) : Prop :=
  Forall (fun b => match bl b with SCont => True | SSome l => 0 < l end
                   /\ match br b with SCont => True | SSome r => 0 < r end) bs.

Lemma side_nonpos_false s : side_nonpos s = false -> match s with SCont => True | SSome v => 0 < v end.
Proof. destruct s as [v|]; [|exact (fun _ => I)]. cbn. intros H. apply negb_false_iff, Z.ltb_lt in H. exact H. Qed.

Lemma is_sortable_pos l b0 :
  is_sortable l = true -> In b0 (bounds_only l) -> side_pos (br b0) = true ->
  all_pos (bounds_only l).
Proof.
  unfold is_sortable. intros Hs Hin Hp.
  assert (Hpos : existsb (fun b => side_pos (bl b) || side_pos (br b)) (bounds_only l) = true).
  { apply existsb_exists. exists b0. split; [exact Hin|]. rewrite Hp. apply orb_true_r. }
  rewrite Hpos, andb_true_r in Hs. apply negb_true_iff in Hs.
  apply Forall_forall. intros b Hb.
  assert (Hb' : side_nonpos (bl b) || side_nonpos (br b) = false).
  { destruct (side_nonpos (bl b) || side_nonpos (br b)) eqn:E; [|reflexivity].
    assert (existsb (fun b => side_nonpos (bl b) || side_nonpos (br b)) (bounds_only l) = true)
      by (apply existsb_exists; exists b; split; assumption).
    congruence. }
  apply orb_false_iff in Hb'. destruct Hb' as [H1 H2].
  exact (conj (side_nonpos_false _ H1) (side_nonpos_false _ H2)).
Qed.

Lemma rightmost_cont bs : rightmost (Some SCont) bs = Some SCont.
Proof. induction bs as [|b bs IH]; [reflexivity|]. cbn [rightmost]. destruct (br b); exact IH. Qed.

Lemma rightmost_ge bs : forall acc L,
  all_pos bs ->
  (match acc with Some SCont => False | Some (SSome a) => 0 < a | None => True end) ->
  rightmost acc bs = Some (SSome L) ->
  (match acc with Some (SSome a) => a <= L | _ => True end)
  /\ Forall (fun b => match br b with SSome r => r <= L | SCont => False end) bs.
Proof.
  induction bs as [|b bs IH]; intros acc L Hp Hacc; cbn [rightmost].
  - intros ->. split; [lia | constructor].
  - destruct (Forall_inv Hp) as [_ Hbr]. apply Forall_inv_tail in Hp.
    destruct (br b) as [r|] eqn:Er.
    2:{ (* the result would be SCont *)
        replace (match acc with None => Some SCont | Some r => if side_gt SCont r then Some SCont else Some r end)
          with (Some SCont) by (destruct acc as [[a|]|]; [reflexivity | contradiction | reflexivity]).
        rewrite rightmost_cont. discriminate. }
    destruct acc as [[a|]|]; [|contradiction|].
    + cbn [side_gt]. unfold same_sign. rewrite (proj2 (Z.ltb_lt 0 r)), (proj2 (Z.ltb_lt 0 a)) by assumption.
      cbn [andb orb]. destruct (Z.ltb_spec a r) as [Har|Har]; intros E.
      * destruct (IH (Some (SSome r)) L Hp Hbr E) as [H1 H2]. split; [lia | constructor; [rewrite Er|]; assumption].
      * destruct (IH (Some (SSome a)) L Hp Hacc E) as [H1 H2].
        split; [exact H1 | constructor; [rewrite Er; lia | exact H2]].
    + intros E. destruct (IH (Some (SSome r)) L Hp Hbr E) as [H1 H2].
      split; [exact I | constructor; [rewrite Er|]; assumption].
Qed.

Lemma rightmost_in bs : forall acc s,
  rightmost acc bs = Some s -> acc = Some s \/ exists b, In b bs /\ br b = s.
Proof.
  induction bs as [|b bs IH]; intros acc s; cbn [rightmost].
  - intros ->. left; reflexivity.
  - intros H. apply IH in H. destruct H as [H|[b' [Hin Hb]]].
    + destruct acc as [a|].
      * destruct (side_gt (br b) a); injection H as <-; [right; exists b; split; [left|]; reflexivity | left; reflexivity].
      * injection H as <-. right. exists b. split; [left|]; reflexivity.
    + right. exists b'. split; [right; exact Hin | exact Hb].
Qed.

Lemma same_but_last_within L x y : same_but_last x y ->
  match x with Bound b => bound_within L b | Filler _ => True end ->
  match y with Bound b => bound_within L b | Filler _ => True end.
Proof.
  destruct x as [a|f], y as [b|g]; try contradiction; [|trivial].
  intros [E1 [E2 _]]. unfold bound_within. rewrite E1, E2. trivial.
Qed.

Lemma from_vec_lif l u L : from_vec l = Some u -> lif u = SSome L ->
  items u = mark_last l /\ is_sortable l = true /\ rightmost None (bounds_only l) = Some (SSome L)
  /\ exists bm, In (Bound bm) l /\ br bm = SSome L.
Proof.
  unfold from_vec. destruct (bounds_only l) as [|b0 bs0] eqn:Eb; [discriminate|].
  intros H; injection H as <-. cbn [lif items].
  change (rightmost (Some (br b0)) bs0) with (rightmost None (b0 :: bs0)).
  destruct (is_sortable l); [|discriminate].
  destruct (rightmost None (b0 :: bs0)) as [s|] eqn:Er; [|discriminate]. intros ->.
  destruct (rightmost_in _ _ _ Er) as [H|[bm [Hin Hbm]]]; [discriminate|].
  repeat split. exists bm. split; [apply bounds_only_in; rewrite Eb; exact Hin | exact Hbm].
Qed.

(** last_interesting_field = L > 0 only when every index is positive, every right side is
    closed, and none exceeds L *)
Theorem lif_sound l u L :
  from_vec l = Some u -> lif u = SSome L -> 0 < L -> items_within L (items u).
Proof.
  intros Hf Hl HL. destruct (from_vec_lif l u L Hf Hl) as [-> [Es [Er [bm [Hin Hbm]]]]].
  assert (Hpos : all_pos (bounds_only l)).
  { apply (is_sortable_pos l bm Es); [apply bounds_only_in, Hin|]. rewrite Hbm. apply Z.ltb_lt, HL. }
  destruct (rightmost_ge _ None L Hpos I Er) as [_ Hle].
  apply (Forall2_Forall _ _ _ _ _ (same_but_last_within L) (mark_last_same l)).
  apply Forall_forall. intros [b|f] Hx; [|exact I]. apply bounds_only_in in Hx.
  destruct (proj1 (Forall_forall _ _) Hpos b Hx) as [P1 P2]. pose proof (proj1 (Forall_forall _ _) Hle b Hx) as P3.
  cbv beta in P3. split; [exact P1|]. destruct (br b); [lia | contradiction].
Qed.

Lemma lif_nonzero l u : from_vec l = Some u -> Forall item_nz l -> lif u <> SSome 0.
Proof.
  intros Hf Hnz Hl. destruct (from_vec_lif l u 0 Hf Hl) as [_ [_ [_ [bm [Hin Hbm]]]]].
  destruct (proj1 (Forall_forall _ _) Hnz _ Hin) as [_ Hr]. rewrite Hbm in Hr. exact (Hr eq_refl).
Qed.


Lemma scan_starts_firstn lif ps : forall curr,
  exists k, (k <= length ps)%nat
    /\ scan_starts lif curr ps = (map S (firstn k ps), curr + Z.of_nat k)
    /\ ((k < length ps)%nat -> lif = SSome (curr + Z.of_nat k)).
Proof.
  induction ps as [|i ps IH]; intros curr; cbn [scan_starts length].
  - exists 0%nat. rewrite Z.add_0_r. split; [lia|]. split; [reflexivity | lia].
  - destruct (side_eqb (SSome (curr + 1)) lif) eqn:E.
    + exists 1%nat. split; [lia|]. split; [reflexivity|]. intros _. symmetry. exact (side_eqb_eq _ _ E).
    + destruct (IH (curr + 1)) as [k [Hk [-> Hl]]]. exists (S k). split; [lia|].
      replace (curr + Z.of_nat (S k)) with (curr + 1 + Z.of_nat k) by lia. split; [reflexivity|].
      intros H. apply Hl. lia.
Qed.

(** The third conjunct is the test of -s in the fast lane: no delimiter was counted exactly when
    the record is a single field. *)
Lemma fast_table_cases lif ps len starts curr :
  lif <> SSome 0 -> scan_starts lif 0 ps = (starts, curr) ->
  exists m, (1 <= m <= S (length ps))%nat
    /\ starts ++ (if side_eqb (SSome curr) lif then [] else [S len]) = map S (firstn m (ps ++ [len]))
    /\ (curr =? 0) = (S (length ps) =? 1)%nat
    /\ (m = S (length ps) \/ lif = SSome (Z.of_nat m)).
Proof.
  intros H0 Esc. destruct (scan_starts_firstn lif ps 0) as [k [Hk [E Hl]]].
  rewrite Esc, Z.add_0_l in E. injection E as -> ->. rewrite Z.add_0_l in Hl.
  destruct (side_eqb (SSome (Z.of_nat k)) lif) eqn:E.
  - (* the early stop fired at the k-th delimiter *)
    apply side_eqb_eq in E. subst lif. exists k.
    assert (k <> 0)%nat by (intros ->; exact (H0 eq_refl)).
    split; [lia|]. split; [|split; [|right; reflexivity]].
    + rewrite firstn_app. replace (k - length ps)%nat with 0%nat by lia. rewrite !app_nil_r. reflexivity.
    + destruct (Z.eqb_spec (Z.of_nat k) 0); [lia|]. symmetry. apply Nat.eqb_neq. lia.
  - (* it never fired: every delimiter is kept, and the end of the record is added *)
    assert (k = length ps) as ->.
    { destruct (Nat.eq_dec k (length ps)) as [|N]; [assumption|]. rewrite Hl, side_eqb_refl in E by lia. discriminate. }
    exists (S (length ps)). split; [lia|]. split; [|split; [destruct (length ps); reflexivity | left; reflexivity]].
    rewrite !firstn_all2 by (rewrite ?app_length; cbn; lia). rewrite map_app. reflexivity.
Qed.

Lemma find_iter_byte d l : forall pos, find_iter_aux [d] 0 pos l = positions_from d pos l.
Proof.
  induction l as [|x l IH]; intros pos; cbn [find_iter_aux positions_from]; [reflexivity|].
  unfold starts_with. cbn [strip_prefix]. rewrite (N.eqb_sym d x).
  destruct (N.eqb x d); cbn [length Nat.sub]; rewrite IH; reflexivity.
Qed.

Lemma lit_matches_byte d line : lit_matches [d] line = map (fun p => (p, p + 1)%nat) (positions_from d 0 line).
Proof. unfold lit_matches, find_iter. rewrite find_iter_byte. reflexivity. Qed.

Section Tables.
  Local Open Scope nat_scope.

  Lemma gaps_byte ps len : forall start,
    map fst (gaps_from start (map (fun p => (p, p + 1)) ps) len) = start :: map S ps
    /\ map snd (gaps_from start (map (fun p => (p, p + 1)) ps) len) = ps ++ [len].
  Proof.
    induction ps as [|p ps IH]; intros start; cbn [map gaps_from fst snd app]; [split; reflexivity|].
    destruct (IH (p + 1)) as [-> ->]. rewrite Nat.add_1_r. split; reflexivity.
  Qed.

  Lemma byte_table_length d line :
    length (gaps_from 0 (lit_matches [d] line) (length line)) = S (length (positions_from d 0 line)).
  Proof.
    rewrite lit_matches_byte.
    pose proof (f_equal (@length _) (proj1 (gaps_byte (positions_from d 0 line) (length line) 0))) as E.
    cbn [length] in E. rewrite !map_length in E. exact E.
  Qed.

  Lemma fast_table ps len m s e a z :
    s < e <= m -> m <= S (length ps) ->
    nth_error (gaps_from 0 (map (fun p => (p, p + 1)) ps) len) s = Some a ->
    nth_error (gaps_from 0 (map (fun p => (p, p + 1)) ps) len) (e - 1) = Some z ->
    nth_error (0 :: map S (firstn m (ps ++ [len]))) s = Some (fst a)
    /\ nth_error (0 :: map S (firstn m (ps ++ [len]))) e = Some (S (snd z)).
  Proof.
    intros Hse Hm Ha Hz. destruct (gaps_byte ps len 0) as [Es Ee].
    apply (map_nth_error fst) in Ha. apply (map_nth_error snd) in Hz. rewrite Es in Ha. rewrite Ee in Hz.
    assert (Hend : forall k y, k < m -> nth_error (ps ++ [len]) k = Some y ->
                   nth_error (map S (firstn m (ps ++ [len]))) k = Some (S y)).
    { intros k y Hk Hy. apply map_nth_error. rewrite nth_error_firstn_lt by exact Hk. exact Hy. }
    split.
    - destruct s as [|s]; [exact Ha|]. cbn [nth_error] in *.
      (* the start of field s+1 is the successor of the end of field s, a delimiter *)
      rewrite nth_error_map in Ha. destruct (nth_error ps s) as [p|] eqn:Ep; [|discriminate].
      injection Ha as <-. apply Hend; [lia|]. rewrite nth_error_app1 by (apply nth_error_Some; congruence). exact Ep.
    - destruct e as [|e]; [lia|]. cbn [nth_error]. rewrite Nat.sub_succ, Nat.sub_0_r in Hz. apply Hend; [lia | exact Hz].
  Qed.
End Tables.

Definition eligible_plain (o : opt) (d : byte) : Prop :=
  o_delim o = [d] /\ o_replace o = None /\ o_json o = false /\ o_btype o = BFields /\ o_regex o = None.

Lemma out_loops_agree o d line m bs :
  eligible_plain o d ->
  let ps := positions_from d 0 line in
  (m <= S (length ps))%nat ->
  Forall (fun x => match x with
                   | Bound b => bound_nz b /\ try_into_range b m = try_into_range b (S (length ps))
                   | Filler _ => True
                   end) bs ->
  fast_out o d line (0%nat :: map S (firstn m (ps ++ [length line]))) bs
  = out_loop o line (gaps_from 0 (lit_matches [d] line) (length line)) bs.
Proof.
  intros [Hd [Hr [Hj [Hb Hx]]]] ps Hm HF.
  pose proof (gaps_table_ok _ _ 0 (lit_matches_wf [d] line)) as Ht.
  pose proof (byte_table_length d line) as HlenG.
  rewrite lit_matches_byte in Ht, HlenG |- *. fold ps in Ht, HlenG |- *.
  set (G := gaps_from 0 (map (fun p => (p, p + 1)%nat) ps) (length line)) in *.
  assert (HlenF : (length (0%nat :: map S (firstn m (ps ++ [length line]))) - 1 = m)%nat).
  { cbn [length]. rewrite map_length, firstn_length, app_length. cbn [length]. lia. }
  induction HF as [|x bs Hx0 _ IH]; [reflexivity|].
  destruct x as [b|f]; cbn [fast_out]; [|cbn [out_loop]; rewrite IH; reflexivity].
  destruct Hx0 as [Hnz Hres]. rewrite out_loop_cons_bound, HlenF, IH. clear IH.
  assert (Hsep : out_sep o b = if o_join o && negb (blast b) then [d] else [])
    by (unfold out_sep, out_rep; rewrite Hr, Hd; reflexivity).
  rewrite Hsep. rewrite <- HlenG in Hres.
  destruct (try_into_range b m) as [[s e]|] eqn:E; symmetry in Hres.
  - (* the general path slices from the start of field s to the end of field e-1; the fast lane
       reads the same two offsets at s and e of its table *)
    destruct (out_piece_resolved o line G b s e Ht Hnz Hres) as [a [z [Ea [Ez [Hse ->]]]]].
    destruct (try_into_range_some b m s e Hnz E) as [_ [_ [_ Hsem]]].
    destruct (fast_table ps (length line) m s e a z Hsem Hm Ea Ez) as [-> ->].
    destruct (Ht s (e - 1)%nat a z ltac:(lia) Ea Ez) as [P1 P2].
    replace (S (snd z) - 1)%nat with (snd z) by lia.
    rewrite (proj2 (Nat.leb_le _ _) P1), (proj2 (Nat.leb_le _ _) P2). cbn [Nat.leb andb].
    unfold maybe_replace. rewrite Hb, Hr, (emit_part_plain o _ Hj). reflexivity.
  - rewrite (out_piece_unresolved o line G b Hres).
    destruct (fallback_for b (o_fallback o)); [rewrite (emit_part_plain o _ Hj)|]; reflexivity.
Qed.

Lemma fast_eligible_plain o : fast_eligible o = true ->
  exists d, eligible_plain o d /\ o_complement o = false /\ o_greedy o = false /\ o_compress o = false.
Proof.
  unfold fast_eligible. rewrite !andb_true_iff, !negb_true_iff.
  intros [[[[[[[Hd Hc] Hg] Hp] Hj] Hb] Hr] Hx].
  destruct (o_delim o) as [|d [|]] eqn:Ed; try discriminate.
  exists d. unfold eligible_plain. rewrite Ed.
  destruct (o_replace o); [discriminate|]. destruct (o_regex o); [discriminate|].
  destruct (o_btype o); try discriminate. repeat split; assumption.
Qed.

Theorem C02_record o l line0 :
  fast_eligible o = true ->
  from_vec l = Some (o_bounds o) -> Forall item_nz l ->
  cut_str o line0 = Some (cut_fast o line0).
Proof.
  intros He Hfv Hnz.
  destruct (fast_eligible_plain o He) as [d [Hpl [Hc [Hg Hp]]]].
  pose proof Hpl as [Hd [Hr [Hj [Hb Hx]]]].
  assert (Hnz' : Forall item_nz (items (o_bounds o))) by exact (from_vec_nz l _ Hnz Hfv).
  rewrite (cut_str_literal o line0 Hx Hb Hj). unfold cut_fast. rewrite Hd. cbv zeta. f_equal.
  generalize (match o_trim o with None => line0 | Some k => trim_lit k [d] line0 end).
  intros [|c0 buf]; [reflexivity|]. set (line := c0 :: buf).
  unfold lit_stage. rewrite Hp, Hg, Hd. cbn [fst snd].
  rewrite (fields_of_matches_ne _ line) by discriminate. unfold finish_record. rewrite Hc.
  (* the table of the fast lane is that of the first m fields *)
  destruct (scan_starts (lif (o_bounds o)) 0 (positions_from d 0 line)) as [starts curr] eqn:Esc.
  destruct (fast_table_cases _ _ (length line) _ _ (lif_nonzero l _ Hfv Hnz) Esc) as [m [Hm [-> [-> Hcase]]]].
  rewrite (byte_table_length d line), (andb_comm (o_only_delimited o)).
  destruct ((S (length (positions_from d 0 line)) =? 1)%nat && o_only_delimited o); [reflexivity|].
  rewrite (out_loops_agree o d line m (items (o_bounds o)) Hpl (proj2 Hm)); [reflexivity|].
  apply Forall_forall. intros [b|f] Hin; [|exact I]. split; [exact (proj1 (Forall_forall _ _) Hnz' _ Hin)|].
  destruct Hcase as [->|Hlif]; [reflexivity|]. apply early_stop_resolve; [|lia].
  exact (proj1 (Forall_forall _ _) (lif_sound l _ _ Hfv Hlif ltac:(lia)) _ Hin).
Qed.

Lemma run_records_ext cut1 cut2 rs : (forall r, cut1 r = cut2 r) ->
  forall acc, run_records cut1 rs acc = run_records cut2 rs acc.
Proof.
  intros H. induction rs as [|r rs IH]; intros acc; cbn [run_records]; [reflexivity|].
  rewrite H. destruct (cut2 r) as [[o| | |]|]; try reflexivity. apply IH.
Qed.

(** whole runs: same stdout, same status, same completed records on failure *)
Theorem C02_run o l input :
  fast_eligible o = true -> from_vec l = Some (o_bounds o) -> Forall item_nz l ->
  read_and_cut_fast o input = read_and_cut_str o input.
Proof.
  intros He Hfv Hnz. unfold read_and_cut_fast, read_and_cut_str.
  apply run_records_ext. intros r. symmetry. exact (C02_record o l r He Hfv Hnz).
Qed.
