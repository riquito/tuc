(** C07: a range of characters prints the concatenation of those characters. *)
From TucModel Require Import Base.Bytes Base.ListX Model.Scan Model.Utf8 Model.CutStr Proofs.C07.

Lemma char_ranges_nth : forall cs pos i c,
  nth_error cs i = Some c ->
  nth_error (char_ranges pos cs) i
  = Some (pos + total (firstn i cs), pos + total (firstn i cs) + length c).
Proof.
  induction cs as [|c0 cs IH]; intros pos [|i] c H; try discriminate.
  - injection H as <-. cbn [char_ranges nth_error firstn]. rewrite Nat.add_0_r. reflexivity.
  - cbn [char_ranges nth_error firstn]. rewrite (IH _ _ _ H), total_cons, Nat.add_assoc. reflexivity.
Qed.

Lemma total_firstn_S : forall cs i c,
  nth_error cs i = Some c -> total (firstn (S i) cs) = total (firstn i cs) + length c.
Proof.
  induction cs as [|c0 cs IH]; intros [|i] c H; try discriminate.
  - injection H as <-. cbn [firstn]. rewrite total_cons. cbn. lia.
  - rewrite !firstn_cons, !total_cons, (IH _ _ H). lia.
Qed.

Lemma slice_concat : forall cs s e, s <= e -> e <= length cs ->
  slice (concat cs) (total (firstn s cs)) (total (firstn e cs)) = concat (slice cs s e).
Proof.
  intros cs s e Hse He. unfold total.
  rewrite <- (firstn_skipn e cs) at 1. rewrite (firstn_split cs s e Hse), !concat_app, app_length, <- app_assoc.
  apply slice_app_mid.
Qed.

(** a bound that resolves to the characters s+1 .. e prints exactly those characters, whole *)
Theorem chars_range_is_the_selected_characters line cs ms s e a z :
  utf8_chars line = Some cs -> char_matches line = Some ms ->
  s < e -> e <= length cs ->
  range_start (drop_outer (fields_of_matches ms line)) s = Some a ->
  range_end (drop_outer (fields_of_matches ms line)) (e - 1) = Some z ->
  slice line a z = concat (slice cs s e).
Proof.
  intros Hu Hm Hse He Ha Hz.
  assert (Hne : cs <> []) by (intros ->; cbn in He; lia).
  rewrite (char_fields_table line cs ms Hu Hne Hm) in Ha, Hz.
  unfold utf8_chars in Hu. destruct (utf8_chars_fuel_concat _ _ _ Hu) as [Hc _].
  unfold range_start, range_end in *.
  destruct (nth_error cs s) as [c1|] eqn:E1; [|apply nth_error_None in E1; lia].
  destruct (nth_error cs (e - 1)) as [c2|] eqn:E2; [|apply nth_error_None in E2; lia].
  rewrite (char_ranges_nth cs 0 s c1 E1) in Ha. rewrite (char_ranges_nth cs 0 (e - 1) c2 E2) in Hz.
  cbn [fst snd] in Ha, Hz. injection Ha as <-. injection Hz as <-.
  rewrite <- (total_firstn_S cs (e - 1) c2 E2). replace (S (e - 1)) with e by lia.
  rewrite <- Hc at 1. cbn [Nat.add]. apply slice_concat; lia.
Qed.
