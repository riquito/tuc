(** C15, a whole record: -m is the same invocation without -m on the complemented list. *)
From TucModel Require Import Base.Bytes Base.ListX Model.Bounds Model.Opt Model.CutStr
     Proofs.C09 Proofs.C01More Proofs.C09More.

Definition without_complement (o : opt) : opt :=
  mkOpt (o_delim o) (o_eol o) (o_bounds o) (o_btype o) (o_only_delimited o) (o_greedy o) (o_compress o) (o_replace o)
        (o_trim o) false (o_join o) (o_json o) (o_fixed_memory o) (o_fallback o) (o_regex o).

Lemma out_loop_without_complement o line fields bs :
  out_loop (without_complement o) line fields bs = out_loop o line fields bs.
Proof. apply out_loop_cong, Forall2_diag, same_output_refl; reflexivity. Qed.

Theorem complement_is_the_explicit_request o line fields u :
  o_complement o = true ->
  complement_list (items (o_bounds o)) (length fields) = Some u ->
  finish_record o line fields = finish_record (with_bounds u (without_complement o)) line fields.
Proof.
  intros Hc Hu. unfold finish_record.
  cbn [with_bounds without_complement o_only_delimited o_complement o_bounds o_eol]. rewrite Hc, Hu.
  rewrite out_loop_with_bounds, out_loop_without_complement. reflexivity.
Qed.
