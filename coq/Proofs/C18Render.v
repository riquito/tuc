(** C18: the four sequential replacements applied to literal text are one left-to-right pass. *)
From TucModel Require Import Base.Bytes Base.ListX Model.BoundsParse Spec.BoundsGrammar.
Local Open Scope N_scope.

Definition head_is (b : byte) (X : bytes) : bool := match X with y :: _ => y =? b | [] => false end.

Lemma replace2_pair a b rep s : replace2 a b rep (a :: b :: s) = rep ++ replace2 a b rep s.
Proof. cbn [replace2]. rewrite !N.eqb_refl. reflexivity. Qed.

Lemma replace2_keep a b rep x X :
  (x =? a) && head_is b X = false -> replace2 a b rep (x :: X) = x :: replace2 a b rep X.
Proof. intros H. destruct X as [|y t]; [reflexivity|]. cbn [replace2 head_is] in *. rewrite H. reflexivity. Qed.

Lemma replace2_single a b rep x : replace2 a b rep [x] = [x].
Proof. reflexivity. Qed.

Lemma replace2_plain a b rep s : Forall (fun x => N.eqb x a = false) s -> replace2 a b rep s = s.
Proof.
  induction 1 as [|x s Hx _ IH]; [reflexivity|]. rewrite replace2_keep, IH; [reflexivity|].
  rewrite Hx. reflexivity.
Qed.

(** a pass does not change whether the text starts with [b], unless it can put or remove a [b]
    at the head *)
Lemma head_is_replace2 a a' c b X : (c =? b) = (a =? b) -> head_is b (replace2 a a' [c] X) = head_is b X.
Proof.
  intros E. destruct X as [|x [|y t]]; try reflexivity. cbn [replace2].
  destruct ((x =? a) && (y =? a')) eqn:F; [|reflexivity].
  apply andb_true_iff in F. destruct F as [F _]. apply N.eqb_eq in F. subst x. exact E.
Qed.

Theorem render_filler_is_spec : forall t, render_filler t = render_spec t.
Proof.
  unfold render_filler. induction t as [|x s IH IH2] using list_ind_tl; [reflexivity|].
  destruct s as [|y r']; [reflexivity|]. cbn [tl] in IH2.
  change (render_spec (x :: y :: r'))
    with (if (x =? ch_lbrace) && (y =? ch_lbrace) then ch_lbrace :: render_spec r'
          else if (x =? ch_rbrace) && (y =? ch_rbrace) then ch_rbrace :: render_spec r'
          else if (x =? ch_backslash) && (y =? ch_n) then LF :: render_spec r'
          else if (x =? ch_backslash) && (y =? ch_t) then TAB :: render_spec r'
          else x :: render_spec (y :: r')).
  assert (Hxy : forall a b, (x =? a) && (y =? b) = true -> x = a /\ y = b).
  { intros a b H. apply andb_true_iff in H. destruct H as [Hx Hy]. split; apply N.eqb_eq; assumption. }
  (* where a pattern starts at x: the passes before it keep both bytes, its own pass replaces
     them, the passes after it keep the replacement *)
  destruct ((x =? ch_lbrace) && (y =? ch_lbrace)) eqn:E1.
  { destruct (Hxy _ _ E1) as [-> ->]. rewrite (replace2_pair ch_lbrace ch_lbrace). cbn [app].
    rewrite (replace2_keep ch_rbrace ch_rbrace), (replace2_keep ch_backslash ch_n),
      (replace2_keep ch_backslash ch_t), IH2 by reflexivity. reflexivity. }
  destruct ((x =? ch_rbrace) && (y =? ch_rbrace)) eqn:E2.
  { destruct (Hxy _ _ E2) as [-> ->]. do 2 rewrite (replace2_keep ch_lbrace ch_lbrace) by reflexivity.
    rewrite (replace2_pair ch_rbrace ch_rbrace). cbn [app].
    rewrite (replace2_keep ch_backslash ch_n), (replace2_keep ch_backslash ch_t), IH2 by reflexivity.
    reflexivity. }
  destruct ((x =? ch_backslash) && (y =? ch_n)) eqn:E3.
  { destruct (Hxy _ _ E3) as [-> ->]. do 2 rewrite (replace2_keep ch_lbrace ch_lbrace) by reflexivity.
    do 2 rewrite (replace2_keep ch_rbrace ch_rbrace) by reflexivity.
    rewrite (replace2_pair ch_backslash ch_n). cbn [app].
    rewrite (replace2_keep ch_backslash ch_t), IH2 by reflexivity. reflexivity. }
  destruct ((x =? ch_backslash) && (y =? ch_t)) eqn:E4.
  { destruct (Hxy _ _ E4) as [-> ->]. do 2 rewrite (replace2_keep ch_lbrace ch_lbrace) by reflexivity.
    do 2 rewrite (replace2_keep ch_rbrace ch_rbrace) by reflexivity.
    do 2 rewrite (replace2_keep ch_backslash ch_n) by reflexivity.
    rewrite (replace2_pair ch_backslash ch_t), IH2. reflexivity. }
  (* no pattern starts at x: every pass keeps x, the text after it still starting with y or,
     after the third pass, with LF in place of backslash *)
  rewrite (replace2_keep ch_lbrace ch_lbrace) by exact E1.
  rewrite (replace2_keep ch_rbrace ch_rbrace) by (rewrite head_is_replace2 by reflexivity; exact E2).
  rewrite (replace2_keep ch_backslash ch_n) by (rewrite !head_is_replace2 by reflexivity; exact E3).
  rewrite (replace2_keep ch_backslash ch_t) by (rewrite !head_is_replace2 by reflexivity; exact E4).
  rewrite IH. reflexivity.
Qed.
