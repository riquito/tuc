(** C08, record level: under --json the output loop prints, between the brackets, one JSON
    string per selected part - a range is expanded into its parts, an unresolvable bound
    contributes its fallback as one element - separated by commas. *)
From TucModel Require Import Base.Bytes Base.ListX Model.Bounds Model.BoundsParse Model.Scan Model.Utf8 Model.Json
     Model.Opt Model.CutBytes Model.CutStr Spec.Resolve Spec.Fields Spec.BoundsGrammar
     Proofs.BoundsFacts Proofs.C18Iff Proofs.ParseFacts Proofs.C13 Proofs.C08Array Proofs.C01More.
From TucModel Require Model.Scratch.

(** the option settings --json installs (src/bin/tuc.rs) *)
Definition json_opts (o : opt) : Prop :=
  o_json o = true /\ o_join o = true /\ o_replace o = Some [ch_comma].

(** the text of part [i] (0-based) as the output loop prints it *)
Definition field_text (o : opt) (line : bytes) (fields : list mtch) (i : nat) : option bytes :=
  match nth_error fields i with
  | Some f =>
      if Nat.leb (fst f) (snd f) && Nat.leb (snd f) (length line)
      then maybe_replace o (slice line (fst f) (snd f)) else None
  | None => None
  end.

(** the element a single-part (or unresolvable) bound contributes *)
Definition elem_of (o : opt) (line : bytes) (fields : list mtch) (b : ubound) (p : bytes) : Prop :=
  utf8_valid p = true /\
  match try_into_range b (length fields) with
  | Some (s, _) => field_text o line fields s = Some p
  | None => fallback_for b (o_fallback o) = Some p
  end.

(** after range expansion every bound covers one part or none *)
Definition single_or_none (n : nat) (b : ubound) : Prop :=
  try_into_range b n = None \/ exists i, try_into_range b n = Some (i, S i).

(** [mark_last] on a list of bounds: [is_last] is set on the last one *)
Fixpoint set_last_flag (bs : list ubound) : list ubound :=
  match bs with
  | [] => []
  | [b] => [set_last b]
  | b :: r => b :: set_last_flag r
  end.

(** and it is set on no bound before the last *)
Fixpoint unmarked_init (bs : list ubound) : Prop :=
  match bs with
  | [] => True
  | b :: r => (r <> [] -> blast b = false) /\ unmarked_init r
  end.

Lemma set_last_flag_cons2 x y Y : set_last_flag (x :: y :: Y) = x :: set_last_flag (y :: Y).
Proof. reflexivity. Qed.

Lemma set_last_flag_snoc X x : set_last_flag (X ++ [x]) = X ++ [set_last x].
Proof.
  induction X as [|y X IH]; [reflexivity|]. cbn [app]. rewrite <- IH. destruct X; reflexivity.
Qed.

Lemma set_last_flag_idem X : set_last_flag (set_last_flag X) = set_last_flag X.
Proof. destruct X as [|x X _] using rev_ind; [reflexivity|]. rewrite !set_last_flag_snoc. reflexivity. Qed.

Lemma set_last_flag_nz X : Forall bound_nz X -> Forall bound_nz (set_last_flag X).
Proof.
  destruct X as [|x X _] using rev_ind; [trivial|]. rewrite set_last_flag_snoc, !Forall_app.
  intros [H1 H2]. split; [exact H1|]. inversion H2; subst. constructor; assumption.
Qed.

Lemma unmarked_init_app X Y :
  Forall (fun b => blast b = false) X -> unmarked_init Y -> unmarked_init (X ++ Y).
Proof.
  intros HX HY. induction HX as [|x X Hx _ IH]; [exact HY|]. split; [intros _; exact Hx | exact IH].
Qed.

Lemma Forall_unmarked_init bs : Forall (fun b => blast b = false) bs -> unmarked_init bs.
Proof. intros H. rewrite <- (app_nil_r bs). exact (unmarked_init_app bs [] H I). Qed.

Lemma set_last_flag_unmarked_init X : unmarked_init X -> unmarked_init (set_last_flag X).
Proof.
  induction X as [|x [|y X] IH]; [trivial | |].
  - intros _. split; [intros H; destruct (H eq_refl) | exact I].
  - rewrite set_last_flag_cons2. intros [Hx Hu]. split; [intros _; apply Hx; discriminate | exact (IH Hu)].
Qed.

Lemma unmarked_init_flat (f : ubound -> list ubound) bs :
  (forall b, Forall (fun u => blast u = false) (f b) \/ f b = [b]) ->
  unmarked_init bs -> unmarked_init (flat_map f bs).
Proof.
  intros Hf. induction bs as [|b bs IH]; [trivial|]. intros [Hb Hu]. cbn [flat_map].
  destruct (Hf b) as [H| ->]; [exact (unmarked_init_app _ _ H (IH Hu))|].
  split; [|exact (IH Hu)]. intros Hne. apply Hb. intros ->. exact (Hne eq_refl).
Qed.

Lemma mark_last_bounds bs : mark_last (map Bound bs) = map Bound (set_last_flag bs).
Proof.
  induction bs as [|b bs IH]; [reflexivity|].
  cbn [map mark_last]. rewrite bounds_only_map_Bound.
  destruct bs as [|b' bs']; [reflexivity|]. rewrite IH. reflexivity.
Qed.

Lemma from_vec_bounds X u : from_vec (map Bound X) = Some u -> items u = map Bound (set_last_flag X).
Proof. intros H. rewrite (proj1 (from_vec_items _ _ H)). apply mark_last_bounds. Qed.

Section Loop.
Variable o : opt.
Hypothesis Hj : json_opts o.
Variables (line : bytes) (fields : list mtch).

(** what the loop does for one single-part or unresolvable bound: its element, a comma unless
    the bound is flagged as the last one, then the rest *)
Lemma out_loop_bound b bs body :
  single_or_none (length fields) b ->
  out_loop o line fields (Bound b :: bs) = ROk body ->
  exists t r, elem_of o line fields b t /\ out_loop o line fields bs = ROk r
              /\ body = json_string t ++ (if negb (blast b) then [ch_comma] else []) ++ r.
Proof.
  destruct Hj as (Hjs & Hjj & Hjr). intros Hs. cbn [out_loop]. unfold elem_of, emit_part.
  rewrite Hjs, Hjj, Hjr. cbn [andb]. destruct Hs as [E|[i E]]; rewrite E.
  - destruct (fallback_for b (o_fallback o)) as [t|]; [|discriminate].
    destruct (utf8_valid t) eqn:V; [|discriminate].
    destruct (out_loop o line fields bs) as [r| | |]; try discriminate. intros [= <-].
    exists t, r. split; [split; [exact V | reflexivity] | split; reflexivity].
  - replace (S i - 1) with i by lia. unfold range_start, range_end, field_text.
    destruct (nth_error fields i) as [f|]; [|discriminate].
    destruct (Nat.leb (fst f) (snd f) && Nat.leb (snd f) (length line)); [|discriminate].
    destruct (maybe_replace o (slice line (fst f) (snd f))) as [t|]; [|discriminate].
    destruct (utf8_valid t) eqn:V; [|discriminate].
    destruct (out_loop o line fields bs) as [r| | |]; try discriminate. intros [= <-].
    exists t, r. split; [split; [exact V | reflexivity] | split; reflexivity].
Qed.

Lemma out_loop_json_elems : forall bs body,
  unmarked_init bs -> Forall (single_or_none (length fields)) bs ->
  out_loop o line fields (map Bound (set_last_flag bs)) = ROk body ->
  exists parts, Forall2 (elem_of o line fields) bs parts
                /\ body = intercalate [ch_comma] (map json_string parts).
Proof.
  induction bs as [|b bs IH]; intros body Hu Hs.
  - intros [= <-]. exists []. split; [constructor | reflexivity].
  - inversion Hs as [|? ? Hb Hrest]; subst. destruct Hu as [Hflag Hu]. destruct bs as [|b' bs'].
    + (* the last bound, flagged: no separator *)
      intros H. apply (out_loop_bound (set_last b) [] body Hb) in H. destruct H as (t & r & Ht & [= <-] & ->).
      exists [t]. split; [constructor; [exact Ht | constructor] | cbn; rewrite app_nil_r; reflexivity].
    + rewrite set_last_flag_cons2. intros H. apply (out_loop_bound b _ body Hb) in H.
      destruct H as (t & r & Ht & Hr & ->). destruct (IH r Hu Hrest Hr) as (parts & HF & ->).
      rewrite (Hflag ltac:(discriminate)). exists (t :: parts). split; [constructor; assumption|].
      inversion HF; subst. reflexivity.
Qed.
End Loop.

Lemma singles_unmarked s c : Forall (fun u => blast u = false) (singles_from s c).
Proof. revert s; induction c as [|c IH]; intros s; cbn [singles_from]; constructor; [reflexivity | apply IH]. Qed.

Lemma unpack_unmarked n bs :
  unmarked_init bs -> unmarked_init (flat_map (fun b => unpack_bound b n) bs).
Proof.
  apply unmarked_init_flat. intros b. unfold unpack_bound.
  destruct (try_into_range b n) as [[s e]|]; [left; apply singles_unmarked | right; reflexivity].
Qed.

Lemma unpack_single_or_none n bs :
  Forall bound_nz bs -> Forall (single_or_none n) (flat_map (fun b => unpack_bound b n) bs).
Proof.
  intros H. apply Forall_flat_map. eapply Forall_impl; [|exact H]. intros b Hb.
  destruct (try_into_range b n) as [[s e]|] eqn:E.
  - destruct (C13_unpack_expands b n s e Hb E) as [_ HF].
    eapply Forall_impl; [|exact HF]. intros u [i [_ Ei]]. right. exists i. exact Ei.
  - unfold unpack_bound. rewrite E. constructor; [left; exact E | constructor].
Qed.

Section Body.
Variable o : opt.
Hypothesis Hj : json_opts o.
Variables (line : bytes) (fields : list mtch).

(** what a requested bound contributes to the array: a resolvable one, one element per
    part it covers, in order; an unresolvable one, its fallback as one element *)
Definition bound_elems (b : ubound) (ps : list bytes) : Prop :=
  match try_into_range b (length fields) with
  | Some (s, e) =>
      Forall2 (fun i p => field_text o line fields i = Some p /\ utf8_valid p = true) (seq s (e - s)) ps
  | None =>
      exists f, fallback_for b (o_fallback o) = Some f /\ utf8_valid f = true /\ ps = [f]
  end.

Lemma singles_elems : forall c s ps,
  (s + c <= length fields)%nat ->
  Forall2 (elem_of o line fields) (singles_from s c) ps ->
  Forall2 (fun i p => field_text o line fields i = Some p /\ utf8_valid p = true) (seq s c) ps.
Proof.
  induction c as [|c IH]; intros s ps Hle H; cbn [singles_from seq] in *.
  - inversion H; subst. constructor.
  - inversion H as [|u p us ps' Hu Hus]; subst. constructor; [|apply IH; [lia | exact Hus]].
    destruct Hu as [V Hu].
    pose proof (singles_from_resolve s 1 (length fields) ltac:(lia)) as HS.
    cbn [singles_from] in HS. inversion HS as [|? ? [i [Hi Ei]] _]; subst.
    rewrite Ei in Hu. replace i with s in Hu by lia. split; assumption.
Qed.

Lemma unpack_elems b ps :
  bound_nz b -> Forall2 (elem_of o line fields) (unpack_bound b (length fields)) ps -> bound_elems b ps.
Proof.
  intros Hnz H. unfold bound_elems, unpack_bound in *.
  destruct (try_into_range b (length fields)) as [[s e]|] eqn:E.
  - pose proof (try_into_range_some b _ s e Hnz E) as [_ [_ [_ Hse]]].
    apply singles_elems; [lia | exact H].
  - inversion H as [|? p ? ? [V Hp] Hr]; subst. inversion Hr; subst.
    rewrite E in Hp. exists p. repeat split; assumption.
Qed.

(** a bound that needs no expansion is a single index *)
Lemma no_unpack_single b n :
  bound_nz b ->
  (negb (side_eqb (bl b) (br b)) || side_eqb (bl b) SCont) = false -> single_or_none n b.
Proof.
  intros Hnz H. apply Bool.orb_false_iff in H. destruct H as [H1 H2]. apply Bool.negb_false_iff in H1.
  unfold single_or_none. destruct (try_into_range b n) as [[s e]|] eqn:E; [right | left; reflexivity].
  destruct (try_into_range_some b n s e Hnz E) as (_ & Hs & He & _). exists s. do 2 f_equal.
  unfold first_pos, last_pos in *. destruct (bl b) as [v|], (br b) as [w|]; try discriminate.
  apply Z.eqb_eq in H1. subst w. lia.
Qed.

Lemma needs_unpack_false bs :
  needs_unpack (map Bound bs) = false -> Forall bound_nz bs ->
  Forall (single_or_none (length fields)) bs.
Proof.
  induction bs as [|b bs IH]; intros H Hnz; [constructor|].
  inversion Hnz as [|? ? Hb Hr]; subst. cbn [map needs_unpack existsb] in H.
  apply Bool.orb_false_iff in H. destruct H as [H1 H2].
  constructor; [apply no_unpack_single; assumption | apply IH; assumption].
Qed.

Lemma single_elems b p :
  single_or_none (length fields) b -> elem_of o line fields b p -> bound_elems b [p].
Proof.
  intros Hs [V He]. unfold bound_elems. destruct Hs as [E|[i E]]; rewrite E in *.
  - exists p. repeat split; assumption.
  - replace (S i - i)%nat with 1%nat by lia. cbn [seq]. constructor; [split; assumption | constructor].
Qed.

(** between the brackets: one JSON string per selected part, commas between them *)
Theorem json_body bs l2 body :
  Forall bound_nz bs -> unmarked_init bs -> set_last_flag bs = bs ->
  (if needs_unpack (map Bound bs)
   then option_map items (unpack_list (map Bound bs) (length fields))
   else Some (map Bound bs)) = Some l2 ->
  out_loop o line fields l2 = ROk body ->
  exists pss, Forall2 bound_elems bs pss
              /\ body = intercalate [ch_comma] (map json_string (concat pss)).
Proof.
  intros Hnz Hu Hlast Hl2 Hout.
  destruct (needs_unpack (map Bound bs)) eqn:NU.
  - unfold unpack_list in Hl2.
    rewrite (flat_map_map Bound _ (fun b => unpack_bound b (length fields))) in Hl2 by reflexivity.
    destruct (from_vec (map Bound (flat_map (fun b => unpack_bound b (length fields)) bs))) as [u|] eqn:FV;
      [|discriminate].
    injection Hl2 as <-. rewrite (from_vec_bounds _ _ FV) in Hout.
    destruct (out_loop_json_elems o Hj line fields _ body
                (unpack_unmarked _ bs Hu) (unpack_single_or_none _ bs Hnz) Hout) as [parts [HF ->]].
    destruct (Forall2_flat_map_inv _ _ _ _ HF) as [pss [-> HP]].
    exists pss. split; [|reflexivity]. rewrite <- (map_id pss).
    exact (Forall2_impl_map _ _ _ _ unpack_elems _ _ Hnz HP).
  - injection Hl2 as <-. rewrite <- Hlast in Hout.
    pose proof (needs_unpack_false bs NU Hnz) as Hs.
    destruct (out_loop_json_elems o Hj line fields _ body Hu Hs Hout) as [parts [HF ->]].
    exists (map (fun p => [p]) parts). rewrite concat_map_singleton. split; [|reflexivity].
    exact (Forall2_impl_map _ _ _ _ single_elems _ _ Hs HF).
Qed.
End Body.

(** bounds lists without format text, as [From<Vec<BoundOrFiller>>] builds them *)
Definition plain_bounds (l : list bof) (bs : list ubound) : Prop :=
  l = map Bound bs /\ Forall bound_nz bs /\ unmarked_init bs /\ set_last_flag bs = bs.

Lemma mark_last_plain X :
  Forall bound_nz X -> unmarked_init X -> plain_bounds (mark_last (map Bound X)) (set_last_flag X).
Proof.
  intros Hnz Hu. split; [apply mark_last_bounds|].
  split; [apply set_last_flag_nz, Hnz|]. split; [apply set_last_flag_unmarked_init, Hu | apply set_last_flag_idem].
Qed.

Lemma complement_bound_unmarked b n c :
  complement_bound b n = Some c -> Forall (fun u => blast u = false) c.
Proof.
  unfold complement_bound. destruct (try_into_range b n) as [[s e]|]; [|discriminate].
  intros H; injection H as <-. apply Forall_forall. intros u Hin.
  apply in_map_iff in Hin. destruct Hin as [r [<- _]]. reflexivity.
Qed.

Lemma complement_list_plain bs n u :
  Forall bound_nz bs -> unmarked_init bs -> complement_list (map Bound bs) n = Some u ->
  exists cs, plain_bounds (items u) cs.
Proof.
  intros Hnz Hu CL. rewrite (complement_list_items _ _ _ CL). unfold complement_items.
  set (f := fun b => match complement_bound b n with Some c => c | None => [b] end).
  rewrite (flat_map_map Bound _ f) by (intros b; unfold f; destruct (complement_bound b n); reflexivity).
  exists (set_last_flag (flat_map f bs)). apply mark_last_plain.
  - apply Forall_flat_map. eapply Forall_impl; [|exact Hnz]. intros b Hb. unfold f.
    destruct (complement_bound b n) as [c|] eqn:E; [exact (complement_bound_nz b n c Hb E) | constructor; [exact Hb | constructor]].
  - apply unmarked_init_flat; [|exact Hu]. intros b. unfold f.
    destruct (complement_bound b n) as [c|] eqn:E; [left; exact (complement_bound_unmarked b n c E) | right; reflexivity].
Qed.

(** the bounds the loop runs over, complemented or not, are again a plain list *)
Lemma loop_bounds_plain o n bs0 l :
  plain_bounds (items (o_bounds o)) bs0 ->
  (if o_complement o
   then match complement_list (items (o_bounds o)) n with Some u => Some (items u) | None => None end
   else Some (items (o_bounds o))) = Some l ->
  exists cs, plain_bounds l cs /\ (o_complement o = false -> cs = bs0).
Proof.
  intros Hb. destruct (o_complement o).
  - destruct Hb as (-> & Hnz & Hu & _).
    destruct (complement_list (map Bound bs0) n) as [u|] eqn:CL; [|discriminate]. intros [= <-].
    destruct (complement_list_plain bs0 n u Hnz Hu CL) as [cs Hcs]. exists cs. split; [exact Hcs | discriminate].
  - intros [= <-]. exists bs0. split; [exact Hb | reflexivity].
Qed.

(** everything of cut_str after the fields table, under --json *)
Lemma cut_tail_json o line fields out bs0 :
  json_opts o -> plain_bounds (items (o_bounds o)) bs0 ->
  Scratch.cut_tail o line fields = Some (ROk out) ->
  (out = [] /\ o_only_delimited o = true)
  \/ exists bs pss,
       (o_complement o = false -> bs = bs0)
       /\ Forall2 (bound_elems o line fields) bs pss
       /\ out = json_array_line (concat pss) ++ [o_eol o].
Proof.
  intros Hj Hb. pose proof Hj as (Hjs & _).
  unfold Scratch.cut_tail. rewrite Hjs. cbn [orb andb].
  destruct (o_only_delimited o && Nat.eqb (length fields) 1) eqn:S.
  { intros [= <-]. left. split; [reflexivity|]. apply Bool.andb_true_iff in S. apply S. }
  destruct (if o_complement o then _ else _) as [l|] eqn:E1; [|discriminate].
  destruct (loop_bounds_plain o _ bs0 l Hb E1) as (cs & (-> & Cnz & Cu & Cl) & Hc).
  destruct (if needs_unpack _ then _ else _) as [bs2|] eqn:E2; [|discriminate].
  destruct (out_loop o line fields bs2) as [body| | |] eqn:EO; try discriminate. intros [= <-].
  destruct (json_body o Hj line fields cs bs2 body Cnz Cu Cl E2 EO) as (pss & HF & ->).
  right. exists cs, pss. split; [exact Hc | split; [exact HF|]].
  unfold json_array_line. rewrite <- !app_assoc. reflexivity.
Qed.

Theorem json_record o rec out bs0 :
  json_opts o -> plain_bounds (items (o_bounds o)) bs0 ->
  cut_str o rec = Some (ROk out) ->
  (out = [] /\ o_only_delimited o = true)
  \/ (out = [o_eol o] /\ (o_trim o = None -> rec = []))
  \/ exists line fields bs pss,
       (o_complement o = false -> bs = bs0)
       /\ Forall2 (bound_elems o line fields) bs pss
       /\ out = json_array_line (concat pss) ++ [o_eol o].
Proof.
  intros Hj Hb. pose proof Hj as (_ & _ & Hrep).
  rewrite cut_str_stages. unfold cut_guard. rewrite Hrep, Bool.andb_false_r. cbn [andb].
  pose proof (cut_trim_none o rec) as Htr.
  destruct (cut_trim o rec) as [[|c line1]|]; try discriminate.
  { destruct (o_only_delimited o) eqn:S; intros [= <-]; [left; split; reflexivity|].
    right; left. split; [reflexivity|]. intros Ht. specialize (Htr Ht). injection Htr as <-. reflexivity. }
  destruct (cut_matches o (c :: line1)) as [[line ms]|]; [|discriminate]. intros H.
  destruct (cut_tail_json o line _ out bs0 Hj Hb H) as [C | (bs & pss & C)];
    [left; exact C | right; right; exists line; eauto].
Qed.

Lemma csv_text_plain s bs :
  csv_text s bs -> Forall bound_nz bs /\ Forall (fun b => blast b = false) bs.
Proof.
  intros (parts & _ & _ & _ & HF). induction HF as [|p b ps bs Hb _ [IH1 IH2]]; [split; constructor|].
  split; constructor; try assumption; [exact (bound_text_nz p b Hb) | destruct Hb; reflexivity].
Qed.

(** every bounds argument without format text that the parser accepts is such a list *)
Theorem parsed_plain_bounds s u :
  existsb is_brace s = false -> parse_ublist s = Some u -> exists bs, plain_bounds (items u) bs.
Proof.
  intros Hb H. apply (parse_ublist_plain s u Hb) in H. destruct H as (bs & Hcsv & FV).
  destruct (csv_text_plain s bs Hcsv) as [H1 H2].
  exists (set_last_flag bs). rewrite (proj1 (from_vec_items _ _ FV)).
  exact (mark_last_plain bs H1 (Forall_unmarked_init _ H2)).
Qed.
