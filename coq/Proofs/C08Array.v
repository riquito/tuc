(** C08, array level: the line --json prints for a record reads back, with a strict one-pass
    reader, as exactly the list of parts. *)
From TucModel Require Import Base.Bytes Model.Json Spec.JsonSpec Spec.Fields Spec.JsonArray Proofs.C08.
Local Open Scope N_scope.

Lemma jarr_u cur acc h l r :
  jarr JStr cur acc (92 :: 117 :: 48 :: 48 :: h :: l :: r)
  = match hex_val h, hex_val l with
    | Some a, Some c => if a <? 8 then jarr JStr ((a * 16 + c) :: cur) acc r else None
    | _, _ => None
    end.
Proof. reflexivity. Qed.

Lemma jarr_escape_byte b cur acc r :
  jarr JStr cur acc (json_escape_byte b ++ r) = jarr JStr (b :: cur) acc r.
Proof.
  destruct (json_escape_byte_spec b) as [(e & He & ->)|[(Hlt & ->)|(Hge & H34 & H92 & ->)]]; cbn [app].
  - cbn [jarr]. rewrite He. reflexivity.
  - rewrite jarr_u. apply (u_escape_decodes b (fun x => jarr JStr (x :: cur) acc r) Hlt).
  - cbn [jarr].
    rewrite (proj2 (N.eqb_neq b 34) H34), (proj2 (N.eqb_neq b 92) H92), (proj2 (N.ltb_ge b 32) Hge).
    reflexivity.
Qed.

Lemma jarr_body s : forall cur acc r,
  jarr JStr cur acc (flat_map json_escape_byte s ++ r) = jarr JStr (rev s ++ cur) acc r.
Proof.
  induction s as [|b s IH]; intros cur acc r; [reflexivity|].
  cbn [flat_map rev]. rewrite <- app_assoc, jarr_escape_byte, IH, <- app_assoc. reflexivity.
Qed.

(** one element, from after the opening quote to just after the closing one *)
Lemma jarr_string s acc r :
  jarr JStr [] acc (flat_map json_escape_byte s ++ ch_quote :: r) = jarr JAfter [] (s :: acc) r.
Proof.
  rewrite jarr_body, app_nil_r. cbn [jarr]. unfold ch_quote.
  change (34 =? 34) with true. cbv iota. rewrite rev_involutive. reflexivity.
Qed.

Lemma json_string_unfold s r :
  json_string s ++ r = ch_quote :: flat_map json_escape_byte s ++ ch_quote :: r.
Proof. unfold json_string. cbn [app]. rewrite <- app_assoc. reflexivity. Qed.

Lemma jarr_elements parts : forall p acc,
  jarr JStr [] acc (flat_map json_escape_byte p ++ ch_quote ::
                    flat_map (fun q => [ch_comma] ++ json_string q) parts ++ [ch_rbracket])
  = Some (rev acc ++ p :: parts).
Proof.
  induction parts as [|q parts IH]; intros p acc.
  - rewrite jarr_string. cbn [flat_map app jarr]. reflexivity.
  - rewrite jarr_string. cbn [flat_map]. rewrite <- app_assoc.
    cbn [app]. rewrite json_string_unfold.
    cbn [jarr]. unfold ch_comma, ch_quote. change (44 =? 44) with true. change (34 =? 34) with true.
    cbv iota. fold ch_quote. rewrite IH. cbn [rev]. rewrite <- app_assoc. reflexivity.
Qed.

Lemma intercalate_as_flat_map (sep : bytes) (f : bytes -> bytes) p parts :
  intercalate sep (map f (p :: parts)) = f p ++ flat_map (fun q => sep ++ f q) parts.
Proof.
  revert p; induction parts as [|q parts IH]; intros p.
  - cbn [map intercalate flat_map]. rewrite app_nil_r. reflexivity.
  - change (intercalate sep (map f (p :: q :: parts)))
      with (f p ++ sep ++ intercalate sep (map f (q :: parts))).
    rewrite IH. cbn [flat_map]. rewrite <- app_assoc. reflexivity.
Qed.

(** what --json prints for a record: '[' e1 ',' e2 ... ']' with e_i the JSON string of part i *)
Definition json_array_line (parts : list bytes) : bytes :=
  [ch_lbracket] ++ intercalate [ch_comma] (map json_string parts) ++ [ch_rbracket].

Theorem json_array_roundtrip parts : json_read_array (json_array_line parts) = Some parts.
Proof.
  unfold json_read_array, json_array_line. destruct parts as [|p parts]; [reflexivity|].
  rewrite intercalate_as_flat_map. cbn [app jarr]. unfold ch_lbracket. change (91 =? 91) with true.
  cbv iota. rewrite <- app_assoc, json_string_unfold. cbn [jarr]. unfold ch_quote at 1.
  change (34 =? 93) with false. change (34 =? 34) with true. cbv iota.
  apply (jarr_elements parts p []).
Qed.
