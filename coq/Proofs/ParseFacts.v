(** No index is 0 in what the bounds parser accepts: the grammar has none, and the parser accepts
    the grammar only. *)
From TucModel Require Import Base.Bytes Model.Bounds Model.BoundsParse Spec.BoundsGrammar
     Proofs.BoundsFacts Proofs.C06 Proofs.C18Iff Proofs.C18Fmt.
Local Open Scope Z_scope.

Lemma range_text_nz s l r : range_text s l r -> side_nz l /\ side_nz r.
Proof.
  intros [? ? [_ [_ H]]|? ? ? ? [_ [_ Hl]] [_ [_ Hr]] _|? ? [_ [_ H]]|? ? [_ [_ H]]]; cbn; auto.
Qed.

Lemma bound_text_nz s b : bound_text s b -> bound_nz b.
Proof. intros [? ? ? H|? ? ? ? H]; exact (range_text_nz _ _ _ H). Qed.

Lemma parse_bound_nz s b : parse_bound s = Some b -> bound_nz b.
Proof. intros H. apply parse_bound_iff, bound_text_nz in H. exact H. Qed.

Lemma parse_bounds_csv_nz ps l : parse_bounds_csv ps = Some l -> Forall item_nz l.
Proof.
  intros H. apply parse_csv_iff in H. destruct H as [bs [HF ->]]. apply Forall_map.
  induction HF as [|p b ps bs Hb _ IH]; constructor; [exact (bound_text_nz p b Hb) | exact IH].
Qed.

Lemma fmt_items_nz s its : fmt_items s its -> Forall item_nz its.
Proof.
  assert (G : forall t, Forall item_nz (filler_of t)) by (intros [|]; repeat constructor).
  induction 1 as [t _|t c rest bs its _ _ _ _ _ Hcsv _ IH]; [apply G|].
  apply Forall_app. split; [apply G|]. apply Forall_app. split; [|exact IH].
  apply csv_parse in Hcsv. exact (parse_bounds_csv_nz _ _ Hcsv).
Qed.

Lemma parse_bounds_list_nz s l : parse_bounds_list s = Some l -> Forall item_nz l.
Proof.
  unfold parse_bounds_list. destruct s as [|c s]; [intros H; injection H as <-; constructor|].
  destruct (existsb is_brace (c :: s)).
  - intros H. exact (fmt_items_nz _ _ (scan_format_sound _ _ H)).
  - apply parse_bounds_csv_nz.
Qed.

Lemma parse_ublist_from_vec s u : parse_ublist s = Some u -> exists l, from_vec l = Some u /\ Forall item_nz l.
Proof.
  unfold parse_ublist. destruct s as [|c s]; [discriminate|].
  destruct (parse_bounds_list (c :: s)) as [l|] eqn:E; [|discriminate].
  intros H. exists l. split; [exact H | exact (parse_bounds_list_nz _ _ E)].
Qed.

Theorem parse_ublist_nz s u : parse_ublist s = Some u -> Forall item_nz (items u).
Proof. intros H. destruct (parse_ublist_from_vec s u H) as [l [E Hl]]. exact (from_vec_nz l u Hl E). Qed.
