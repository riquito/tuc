(** C10: records are cut independently: the run over A ++ B is the run over A followed by
    the run over B (A ending with an EOL), including what a failure delivers.  Stated for any
    per-record function; Properties/C10.v takes the general path, the fast lane and -M for it. *)
From TucModel Require Import Base.Bytes Model.CutStr.

Definition seq_outcome (x y : option outcome) : option outcome :=
  match x with
  | Some (Done a) =>
      match y with
      | Some (Done b) => Some (Done (a ++ b))
      | Some (Fail b) => Some (Fail (a ++ b))
      | other => other
      end
  | other => other
  end.

Lemma records_aux_app eol cur A B :
  records_aux eol cur (A ++ [eol] ++ B) = records_aux eol cur (A ++ [eol]) ++ records_aux eol [] B.
Proof.
  revert cur; induction A as [|x A IH]; intros cur; cbn [app records_aux].
  - rewrite N.eqb_refl. cbn [records_aux app]. reflexivity.
  - destruct (N.eqb x eol); [cbn [app]; f_equal|]; apply IH.
Qed.

Lemma records_app eol A B :
  records eol ((A ++ [eol]) ++ B) = records eol (A ++ [eol]) ++ records eol B.
Proof. unfold records. rewrite <- app_assoc. apply records_aux_app. Qed.

Lemma run_records_acc cut rs acc :
  run_records cut rs acc = seq_outcome (Some (Done acc)) (run_records cut rs []).
Proof.
  revert acc; induction rs as [|r rs IH]; intros acc; cbn [run_records seq_outcome].
  - rewrite app_nil_r. reflexivity.
  - destruct (cut r) as [[o| | |]|]; try reflexivity; [|rewrite app_nil_r; reflexivity].
    rewrite (IH (acc ++ o)), (IH ([] ++ o)). cbn [app seq_outcome].
    destruct (run_records cut rs []) as [[x|x| |]|]; try reflexivity; rewrite app_assoc; reflexivity.
Qed.

Lemma run_records_app cut rs1 rs2 :
  run_records cut (rs1 ++ rs2) [] = seq_outcome (run_records cut rs1 []) (run_records cut rs2 []).
Proof.
  assert (G : forall acc, run_records cut (rs1 ++ rs2) acc =
                          match run_records cut rs1 acc with
                          | Some (Done a) => run_records cut rs2 a
                          | other => other
                          end).
  { induction rs1 as [|r rs1 IH]; intros acc; cbn [app run_records]; [reflexivity|].
    destruct (cut r) as [[o| | |]|]; try reflexivity. apply IH. }
  rewrite G. destruct (run_records cut rs1 []) as [[a|a| |]|]; try reflexivity. apply run_records_acc.
Qed.

Theorem run_records_split cut eol A B :
  run_records cut (records eol ((A ++ [eol]) ++ B)) []
  = seq_outcome (run_records cut (records eol (A ++ [eol])) []) (run_records cut (records eol B) []).
Proof. rewrite records_app. apply run_records_app. Qed.

Corollary run_records_split_fail cut eol A B pre :
  run_records cut (records eol (A ++ [eol])) [] = Some (Fail pre) ->
  run_records cut (records eol ((A ++ [eol]) ++ B)) [] = Some (Fail pre).
Proof. intros H. rewrite run_records_split, H. reflexivity. Qed.
