(** C04: the output of the fixed-memory path does not depend on how the input is split
    into successive reads. *)
From TucModel Require Import Base.Bytes Base.ListX Model.Bounds Model.Stream.
Local Open Scope Z_scope.

(** format text is never split into two adjacent fillers (the parser merges text) *)
Fixpoint no_adjacent_fillers (l : list bof) : Prop :=
  match l with
  | Filler _ :: ((Filler _ :: _) as l') => False
  | _ :: l' => no_adjacent_fillers l'
  | [] => True
  end.

Lemma naf_tail x l : no_adjacent_fillers (x :: l) -> no_adjacent_fillers l.
Proof. destruct x as [b|f]; cbn; [tauto|]. destruct l as [|[b|g] l]; cbn; tauto. Qed.

Lemma naf_app_r pre l : no_adjacent_fillers (pre ++ l) -> no_adjacent_fillers l.
Proof. induction pre as [|x pre IH]; [trivial|]. intros H. exact (IH (naf_tail x _ H)). Qed.

Lemma print_bof_bound so b r k piece trunc c :
  print_bof so (Bound b :: r) k piece trunc c
  = match matches b k with
    | Some true =>
        let pre := if negb trunc && (1 <? k) && negb (side_eqb (bl b) (SSome k)) then [sdelim so] else [] in
        if c && side_eqb (br b) (SSome k)
        then (pre ++ piece ++ (if s_join so && negb (blast b) then [sdelim so] else []), r)
        else (pre ++ piece, Bound b :: r)
    | _ => ([], Bound b :: r)
    end.
Proof. reflexivity. Qed.

Lemma print_bof_filler so f r k piece trunc c :
  (forall g r', r <> Filler g :: r') ->
  print_bof so (Filler f :: r) k piece trunc c
  = (f ++ fst (print_bof so r k piece trunc c), snd (print_bof so r k piece trunc c)).
Proof.
  intros Hr. destruct r as [|[b|g] r']; [cbn; rewrite app_nil_r; reflexivity | | destruct (Hr g r' eq_refl)].
  rewrite print_bof_bound. unfold print_bof.
  destruct (matches b k) as [[|]|]; [destruct (c && side_eqb (br b) (SSome k))|..]; cbn [fst snd];
    rewrite ?app_nil_r; reflexivity.
Qed.

Lemma print_bof_suffix so k piece trunc c : forall its o its',
  print_bof so its k piece trunc c = (o, its') -> exists pre, its = pre ++ its'.
Proof.
  induction its as [|[b|f] r IH]; intros o its'.
  - intros [= _ <-]. exists []. reflexivity.
  - rewrite print_bof_bound.
    destruct (matches b k) as [[|]|]; [destruct (c && side_eqb (br b) (SSome k))|..];
      intros [= _ <-]; [exists [Bound b] | exists []..]; reflexivity.
  - destruct r as [|[b|g] r']; [| |]; try (intros [= _ <-]; exists [Filler f]; reflexivity).
    rewrite print_bof_filler by discriminate. intros [= _ <-].
    destruct (IH _ _ (surjective_pairing _)) as [pre E]. exists (Filler f :: pre). cbn [app]. rewrite <- E. reflexivity.
Qed.

Lemma print_bof_naf so its curr piece trunc c o its' :
  no_adjacent_fillers its -> print_bof so its curr piece trunc c = (o, its') -> no_adjacent_fillers its'.
Proof. intros Hn H. destruct (print_bof_suffix _ _ _ _ _ _ _ _ H) as [pre ->]. exact (naf_app_r _ _ Hn). Qed.

(** The second piece continues the field ([trunc = true]: no delimiter in front of it).
    [print_bof] emits one pending filler per call, so with two fillers in a row the two calls
    would emit both and the single call one: hence [no_adjacent_fillers]. *)
Lemma print_bof_compose so its curr a b trunc c :
  no_adjacent_fillers its -> a <> [] ->
  print_bof so its curr (a ++ b) trunc c =
  (fst (print_bof so its curr a trunc false)
     ++ fst (print_bof so (snd (print_bof so its curr a trunc false)) curr b true c),
   snd (print_bof so (snd (print_bof so its curr a trunc false)) curr b true c)).
Proof.
  intros Hn _. induction its as [|[b0|f] r IH].
  - reflexivity.
  - rewrite (print_bof_bound so b0 r curr a). destruct (matches b0 curr) as [[|]|] eqn:Em;
      cbn [andb fst snd]; rewrite !print_bof_bound, Em; [|reflexivity..].
    destruct (c && side_eqb (br b0) (SSome curr)); cbn [negb andb fst snd app]; rewrite <- !app_assoc; reflexivity.
  - rewrite !(print_bof_filler so f r) by (intros g r' ->; exact Hn). cbn [fst snd].
    rewrite <- app_assoc, (IH (naf_tail _ _ Hn)). reflexivity.
Qed.

Lemma scan_chunk_nil so its curr trunc piece out : piece <> [] ->
  scan_chunk so its curr trunc piece [] out
  = ChunkEnd (out ++ fst (print_bof so its curr (rev piece) trunc false))
             (snd (print_bof so its curr (rev piece) trunc false)) curr true.
Proof.
  intros Hp. destruct piece as [|y piece']; [contradiction|]. cbn [scan_chunk].
  destruct (print_bof so its curr (rev (y :: piece')) trunc false). reflexivity.
Qed.

Lemma scan_flush so : forall c its curr trunc q p out,
  no_adjacent_fillers its -> p <> [] ->
  scan_chunk so its curr trunc (q ++ p) c out =
  scan_chunk so (snd (print_bof so its curr (rev p) trunc false)) curr true q c
             (out ++ fst (print_bof so its curr (rev p) trunc false)).
Proof.
  intros c its curr trunc q p out Hn Hp.
  set (fl := print_bof so its curr (rev p) trunc false).
  (* the field printed at once is the flushed part, then the rest as a continuation *)
  assert (Hc : forall q cpl, print_bof so its curr (rev (q ++ p)) trunc cpl
                             = (fst fl ++ fst (print_bof so (snd fl) curr (rev q) true cpl),
                                snd (print_bof so (snd fl) curr (rev q) true cpl))).
  { intros q0 cpl. rewrite rev_app_distr. apply print_bof_compose; [exact Hn | apply rev_nonempty, Hp]. }
  revert q. induction c as [|x c IH]; intros q.
  - destruct q as [|z q'].
    + cbn [app]. rewrite scan_chunk_nil by exact Hp. reflexivity.
    + rewrite !scan_chunk_nil by discriminate. rewrite Hc. cbn [fst snd]. rewrite app_assoc. reflexivity.
  - cbn [scan_chunk]. rewrite Hc.
    assert (Hnil : match q ++ p with [] => true | _ => false end = false)
      by (destruct q; [destruct p; [contradiction|]|]; reflexivity).
    rewrite Hnil. cbn [negb]. rewrite !andb_false_r.
    destruct (print_bof so (snd fl) curr (rev q) true true) as [o2 i2]. cbn [fst snd].
    destruct (N.eqb x (s_eol so)).
    + destruct (pff so i2 curr); [|reflexivity]. rewrite <- !app_assoc. reflexivity.
    + destruct (N.eqb x (s_delim so)); [|apply (IH (x :: q))].
      destruct (side_eqb (SSome curr) (s_lif so)); [destruct (pff so i2 curr); [|reflexivity]|];
        rewrite <- !app_assoc; reflexivity.
Qed.

Definition scan_then (so : sopt) (r : scan_res) (c2 : bytes) : scan_res :=
  match r with
  | ChunkEnd out' its' curr' trunc' => scan_chunk so its' curr' trunc' [] c2 out'
  | RecordEnd out' rest => RecordEnd out' (rest ++ c2)
  | SkipFrom out' rest => SkipFrom out' (rest ++ c2)
  | ScanErr => ScanErr
  end.

Lemma scan_app so c2 : forall c1 its curr trunc p out,
  no_adjacent_fillers its ->
  scan_chunk so its curr trunc p (c1 ++ c2) out
  = scan_then so (scan_chunk so its curr trunc p c1 out) c2.
Proof.
  induction c1 as [|x c1 IH]; intros its curr trunc p out Hn.
  - cbn [app]. destruct p as [|y p']; [reflexivity|].
    rewrite (scan_chunk_nil so its curr trunc (y :: p')) by discriminate.
    apply (scan_flush so c2 its curr trunc [] (y :: p') out Hn). discriminate.
  - cbn [app scan_chunk].
    destruct (N.eqb x (s_eol so)).
    + destruct ((curr =? 1) && negb trunc && match p with [] => true | _ => false end); [reflexivity|].
      destruct (print_bof so its curr (rev p) trunc true) as [o its'].
      destruct (pff so its' curr); reflexivity.
    + destruct (N.eqb x (s_delim so)); [|apply IH, Hn].
      destruct (print_bof so its curr (rev p) trunc true) as [o its'] eqn:E.
      destruct (side_eqb (SSome curr) (s_lif so)).
      * destruct (pff so its' curr); reflexivity.
      * apply IH. eapply print_bof_naf; [exact Hn | exact E].
Qed.

Lemma scan_chunk_suffix so : forall c its curr trunc p out out' its' curr' trunc',
  scan_chunk so its curr trunc p c out = ChunkEnd out' its' curr' trunc' -> exists pre, its = pre ++ its'.
Proof.
  induction c as [|x c IH]; intros its curr trunc p out out' its' curr' trunc'; cbn [scan_chunk].
  - destruct p as [|y p'].
    + intros [= _ <- _ _]. exists []. reflexivity.
    + destruct (print_bof so its curr (rev (y :: p')) trunc false) as [o i] eqn:E.
      intros [= _ <- _ _]. exact (print_bof_suffix _ _ _ _ _ _ _ _ E).
  - destruct (N.eqb x (s_eol so)).
    + destruct ((curr =? 1) && negb trunc && match p with [] => true | _ => false end); [discriminate|].
      destruct (print_bof so its curr (rev p) trunc true) as [o i].
      destruct (pff so i curr); discriminate.
    + destruct (N.eqb x (s_delim so)); [|apply IH].
      destruct (print_bof so its curr (rev p) trunc true) as [o i] eqn:E.
      destruct (side_eqb (SSome curr) (s_lif so)); [destruct (pff so i curr); discriminate|].
      intros H. destruct (print_bof_suffix _ _ _ _ _ _ _ _ E) as [pre1 ->].
      destruct (IH _ _ _ _ _ _ _ _ _ H) as [pre2 ->]. exists (pre1 ++ pre2). apply app_assoc.
Qed.

Lemma scan_chunk_naf so : forall c its curr trunc p out out' its' curr' trunc',
  no_adjacent_fillers its ->
  scan_chunk so its curr trunc p c out = ChunkEnd out' its' curr' trunc' ->
  no_adjacent_fillers its'.
Proof.
  intros c its curr trunc p out out' its' curr' trunc' Hn H.
  destruct (scan_chunk_suffix _ _ _ _ _ _ _ _ _ _ _ H) as [pre ->]. exact (naf_app_r _ _ Hn).
Qed.

Lemma after_eol_app eol a b :
  after_eol eol (a ++ b) = match after_eol eol a with
                           | Some r => Some (r ++ b)
                           | None => after_eol eol b
                           end.
Proof.
  induction a as [|x a IH]; cbn [app after_eol]; [reflexivity|].
  destruct (N.eqb x eol); [reflexivity | exact IH].
Qed.

(** after an early stop the rest of the chunk is searched for the EOL as a chunk of its own
    would be *)
Definition after_scan (so : sopt) (cs : list bytes) (r : scan_res) : rec_res :=
  match r with
  | ChunkEnd out its curr trunc => rec_chunks so (Normal its curr trunc) true cs out
  | RecordEnd out rest => RRecord out (push_rest rest cs)
  | SkipFrom out rest => rec_chunks so Skipping true (push_rest rest cs) out
  | ScanErr => RFail
  end.

Lemma rec_chunks_normal so its curr trunc started c cs out : c <> [] ->
  rec_chunks so (Normal its curr trunc) started (c :: cs) out
  = after_scan so cs (scan_chunk so its curr trunc [] c out).
Proof.
  intros Hc. destruct c as [|x c]; [contradiction|]. cbn [rec_chunks].
  destruct (scan_chunk so its curr trunc [] (x :: c) out) as [| |o [|y rest]|]; reflexivity.
Qed.

Lemma rec_chunks_skipping so started c cs out : c <> [] ->
  rec_chunks so Skipping started (c :: cs) out
  = match after_eol (s_eol so) c with
    | Some rest => RRecord (out ++ [s_eol so]) (push_rest rest cs)
    | None => rec_chunks so Skipping true cs out
    end.
Proof. intros Hc. destruct c; [contradiction | reflexivity]. Qed.

Lemma rec_chunks_skip_rest so rest cs out :
  rec_chunks so Skipping true (push_rest rest cs) out
  = match after_eol (s_eol so) rest with
    | Some rest' => RRecord (out ++ [s_eol so]) (push_rest rest' cs)
    | None => rec_chunks so Skipping true cs out
    end.
Proof. destruct rest; reflexivity. Qed.

Lemma push_rest_cons c cs : c <> [] -> push_rest c cs = c :: cs.
Proof. intros Hc. destruct c; [contradiction | reflexivity]. Qed.

Definition chunks_ok (cs : list bytes) : Prop := Forall (fun c => c <> []) cs.

Inductive rec_equiv : rec_res -> rec_res -> Prop :=
| re_eof : rec_equiv REof REof
| re_last o : rec_equiv (RLast o) (RLast o)
| re_fail : rec_equiv RFail RFail
| re_rec o cs cs' : chunks_ok cs -> chunks_ok cs' -> concat cs = concat cs' ->
                    rec_equiv (RRecord o cs) (RRecord o cs').

Lemma rec_equiv_trans a b c : rec_equiv a b -> rec_equiv b c -> rec_equiv a c.
Proof.
  intros H1 H2. inversion H1; subst; inversion H2; subst; constructor; try assumption.
  congruence.
Qed.

Lemma rec_equiv_sym a b : rec_equiv a b -> rec_equiv b a.
Proof. intros H; inversion H; subst; constructor; try assumption. symmetry; assumption. Qed.

Lemma push_rest_ok rest cs : chunks_ok cs -> chunks_ok (push_rest rest cs).
Proof. intros H. unfold push_rest. destruct rest; [exact H|]. constructor; [discriminate | exact H]. Qed.

Lemma push_rest_concat rest cs : concat (push_rest rest cs) = rest ++ concat cs.
Proof. unfold push_rest. destruct rest; reflexivity. Qed.

Lemma push_rest_merge o rest c cs : c <> [] -> chunks_ok cs ->
  rec_equiv (RRecord o (push_rest (rest ++ c) cs)) (RRecord o (push_rest rest (c :: cs))).
Proof.
  intros Hc Hok. constructor.
  - apply push_rest_ok, Hok.
  - apply push_rest_ok. constructor; assumption.
  - rewrite !push_rest_concat. cbn [concat]. symmetry. apply app_assoc.
Qed.

Definition mode_naf (m : smode) : Prop :=
  match m with Normal its _ _ => no_adjacent_fillers its | Skipping => True end.

Lemma rec_chunks_ok so : forall cs mode started out o cs',
  chunks_ok cs -> rec_chunks so mode started cs out = RRecord o cs' -> chunks_ok cs'.
Proof.
  assert (Hskip : forall cs started out o cs',
    chunks_ok cs -> rec_chunks so Skipping started cs out = RRecord o cs' -> chunks_ok cs').
  { induction cs as [|c cs IH]; intros started out o cs' Hok.
    - destruct started; discriminate.
    - rewrite rec_chunks_skipping by exact (Forall_inv Hok). apply Forall_inv_tail in Hok.
      destruct (after_eol (s_eol so) c); [intros [= _ <-]; apply push_rest_ok, Hok | apply IH, Hok]. }
  induction cs as [|c cs IH]; intros [its curr trunc|] started out o cs' Hok; try apply Hskip, Hok.
  - destruct started; [cbn [rec_chunks] | discriminate].
    destruct (print_bof so its curr [] trunc true) as [o1 i1]. destruct (pff so i1 curr); discriminate.
  - rewrite rec_chunks_normal by exact (Forall_inv Hok). apply Forall_inv_tail in Hok.
    destruct (scan_chunk so its curr trunc [] c out); cbn [after_scan];
      [apply IH, Hok | intros [= _ <-]; apply push_rest_ok, Hok | apply Hskip, push_rest_ok, Hok | discriminate].
Qed.

Lemma rec_chunks_equiv_refl so cs mode started out : chunks_ok cs ->
  rec_equiv (rec_chunks so mode started cs out) (rec_chunks so mode started cs out).
Proof.
  intros Hok. destruct (rec_chunks so mode started cs out) as [| |o cs'|] eqn:E; constructor; try reflexivity;
    exact (rec_chunks_ok so cs mode started out o cs' Hok E).
Qed.

Lemma skipping_merge so c1 c2 cs started out :
  c1 <> [] -> c2 <> [] -> chunks_ok cs ->
  rec_equiv (rec_chunks so Skipping started ((c1 ++ c2) :: cs) out)
            (rec_chunks so Skipping started (c1 :: c2 :: cs) out).
Proof.
  intros H1 H2 Hok. rewrite !rec_chunks_skipping, after_eol_app by (try apply app_nonempty; exact H1).
  destruct (after_eol (s_eol so) c1).
  - apply push_rest_merge; assumption.
  - rewrite <- (rec_chunks_skipping so true c2 cs out H2). apply rec_chunks_equiv_refl. constructor; assumption.
Qed.

Lemma rec_chunks_merge so c1 c2 cs mode started out :
  c1 <> [] -> c2 <> [] -> chunks_ok cs -> mode_naf mode ->
  rec_equiv (rec_chunks so mode started ((c1 ++ c2) :: cs) out)
            (rec_chunks so mode started (c1 :: c2 :: cs) out).
Proof.
  intros H1 H2 Hok Hn. assert (Hok2 : chunks_ok (c2 :: cs)) by (constructor; assumption).
  destruct mode as [its curr trunc|]; [|apply skipping_merge; assumption].
  rewrite !rec_chunks_normal, scan_app by (try apply app_nonempty; assumption).
  destruct (scan_chunk so its curr trunc [] c1 out) as [o1 i1 k1 t1|o1 rest|o1 rest|]; cbn [scan_then after_scan].
  - (* the record goes on into c2 *)
    rewrite <- (rec_chunks_normal so i1 k1 t1 true c2 cs o1 H2). apply rec_chunks_equiv_refl, Hok2.
  - apply push_rest_merge; assumption.
  - (* early stop inside c1: the EOL is looked for in what is left of c1, then in c2 *)
    destruct rest as [|y rest'].
    + cbn [app push_rest]. rewrite push_rest_cons by exact H2. apply rec_chunks_equiv_refl, Hok2.
    + apply (skipping_merge so (y :: rest') c2 cs true o1); [discriminate | assumption..].
  - constructor.
Qed.

Lemma chunks_ok_concat_nil cs : chunks_ok cs -> concat cs = [] -> cs = [].
Proof.
  intros H E. destruct cs as [|c cs]; [reflexivity|]. destruct (app_nonempty c (concat cs) (Forall_inv H) E).
Qed.

Lemma rec_chunks_concat so mode started out : mode_naf mode -> forall cs c, chunks_ok (c :: cs) ->
  rec_equiv (rec_chunks so mode started [concat (c :: cs)] out) (rec_chunks so mode started (c :: cs) out).
Proof.
  intros Hn. induction cs as [|c2 cs IH]; intros c Hok.
  - cbn [concat]. rewrite app_nil_r. apply rec_chunks_equiv_refl, Hok.
  - pose proof (Forall_inv Hok) as H1. apply Forall_inv_tail in Hok.
    pose proof (Forall_inv Hok) as H2. apply Forall_inv_tail in Hok.
    eapply rec_equiv_trans; [|apply rec_chunks_merge; assumption].
    replace (concat (c :: c2 :: cs)) with (concat ((c ++ c2) :: cs)) by (cbn [concat]; symmetry; apply app_assoc).
    apply IH. constructor; [apply app_nonempty, H1 | exact Hok].
Qed.

Lemma rec_chunks_equiv so cs cs' mode started out :
  chunks_ok cs -> chunks_ok cs' -> concat cs = concat cs' -> mode_naf mode ->
  rec_equiv (rec_chunks so mode started cs out) (rec_chunks so mode started cs' out).
Proof.
  intros Hok Hok' E Hn.
  destruct cs as [|c cs0].
  - symmetry in E. rewrite (chunks_ok_concat_nil cs' Hok' E). apply rec_chunks_equiv_refl, Hok.
  - destruct cs' as [|c' cs0']; [discriminate (chunks_ok_concat_nil _ Hok E)|].
    eapply rec_equiv_trans; [apply rec_equiv_sym, rec_chunks_concat; assumption|].
    rewrite E. apply rec_chunks_concat; assumption.
Qed.

Lemma run_stream_fuel_equiv so : no_adjacent_fillers (s_items so) ->
  forall fuel cs cs' acc,
    chunks_ok cs -> chunks_ok cs' -> concat cs = concat cs' ->
    run_stream_fuel fuel so cs acc = run_stream_fuel fuel so cs' acc.
Proof.
  intros Hn. induction fuel as [|f IH]; intros cs cs' acc Hok Hok' E; [reflexivity|].
  cbn [run_stream_fuel].
  pose proof (rec_chunks_equiv so cs cs' (Normal (s_items so) 1 false) false [] Hok Hok' E Hn) as R.
  inversion R as [| | |o l l' Hl Hl' El]; subst; try reflexivity.
  apply IH; assumption.
Qed.

Lemma total_len_concat cs : total_len cs = length (concat cs).
Proof.
  unfold total_len. induction cs as [|c cs IH]; [reflexivity|].
  cbn [fold_right concat]. rewrite app_length, IH. reflexivity.
Qed.

(** C04: any two ways of splitting the same input into non-empty reads give the same
    output and the same status *)
Theorem run_stream_segmentation_independent so cs cs' :
  no_adjacent_fillers (s_items so) ->
  chunks_ok cs -> chunks_ok cs' -> concat cs = concat cs' ->
  run_stream so cs = run_stream so cs'.
Proof.
  intros Hn Hok Hok' E. unfold run_stream. rewrite (total_len_concat cs), (total_len_concat cs'), E.
  apply run_stream_fuel_equiv; assumption.
Qed.

Theorem run_stream_equals_single_read so cs :
  no_adjacent_fillers (s_items so) -> chunks_ok cs ->
  run_stream so cs = run_stream_whole so (concat cs).
Proof.
  intros Hn Hok. unfold run_stream_whole. apply run_stream_segmentation_independent; try assumption.
  - apply push_rest_ok. constructor.
  - rewrite push_rest_concat. cbn. rewrite app_nil_r. reflexivity.
Qed.
