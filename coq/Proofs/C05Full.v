(** C05: the one-line-at-a-time reader prints exactly the selected lines, and so agrees
    with the whole-input algorithm on every request both can serve. *)
From TucModel Require Import Base.Bytes Model.Bounds Model.Utf8
     Model.Opt Model.CutStr Model.CutLines Spec.Fields Proofs.C06
     Proofs.C05 Proofs.Plain Proofs.C03Full.
Local Open Scope Z_scope.

Section Rem.
  Variable o : opt.
  Let eol := o_eol o.

  Definition lsep (bs' : list bof) : bytes := if o_join o && nonempty bs' then [eol] else [].

  (** what remains to be printed when [idx] lines have been read, [ls] are the lines still to
      come, and [started] tells whether the head bound has already printed a line *)
  Fixpoint rem (idx : Z) (ls : list bytes) (bs : list bof) (started : bool) : bytes :=
    match bs with
    | [] => []
    | Filler f :: bs' => f ++ lsep bs' ++ rem idx ls bs' false
    | Bound b :: bs' =>
        let n := idx + Z.of_nat (length ls) in
        let l := left_of b in
        let hi := match br b with SSome r => r | SCont => n end in
        (if started then flat_map (fun x => eol :: x) (firstn (Z.to_nat (hi - idx)) ls)
         else intercalate [eol] (firstn (Z.to_nat (hi - l + 1)) (skipn (Z.to_nat (l - 1 - idx)) ls)))
        ++ (match br b with SSome _ => lsep bs' | SCont => lsep bs' end)
        ++ rem idx ls bs' false
    end.
End Rem.

(** the domain on n lines: positive bounds, each left <= right <= n (or open with left <= n),
    each starting at or after the line the previous one ended on *)
Fixpoint fwd_ok (lo n : Z) (bs : list bof) : Prop :=
  match bs with
  | [] => True
  | Filler _ :: _ => False
  | Bound b :: bs' =>
      lo <= left_of b /\ 0 < left_of b /\ left_of b <= n
      /\ match br b with
         | SSome rv => left_of b <= rv /\ rv <= n /\ fwd_ok rv n bs'
         | SCont => bs' = []
         end
  end.

(** [rem] on a bound, without the case distinction on [br b] whose two arms coincide *)
Lemma rem_bound o idx ls b bs' started n : n = idx + Z.of_nat (length ls) ->
  rem o idx ls (Bound b :: bs') started
  = (let hi := match br b with SSome r => r | SCont => n end in
     if started then flat_map (fun x => o_eol o :: x) (firstn (Z.to_nat (hi - idx)) ls)
     else intercalate [o_eol o]
            (firstn (Z.to_nat (hi - left_of b + 1)) (skipn (Z.to_nat (left_of b - 1 - idx)) ls)))
    ++ lsep o bs' ++ rem o idx ls bs' false.
Proof. intros ->. cbn [rem]. destruct (br b); reflexivity. Qed.

Lemma rem_shift o x ls : forall bs lo idx,
  idx + 1 < lo -> fwd_ok lo (idx + 1 + Z.of_nat (length ls)) bs ->
  rem o idx (x :: ls) bs false = rem o (idx + 1) ls bs false.
Proof.
  induction bs as [|[b|f] bs IH]; intros lo idx Hlo Hok; cbn [fwd_ok] in Hok; [reflexivity | | contradiction].
  destruct Hok as (Hl & _ & _ & Hr).
  rewrite !(rem_bound _ _ _ _ _ _ (idx + 1 + Z.of_nat (length ls))) by (cbn [length]; lia). cbv zeta.
  replace (Z.to_nat (left_of b - 1 - idx)) with (S (Z.to_nat (left_of b - 1 - (idx + 1)))) by lia.
  cbn [skipn]. do 2 f_equal.
  destruct (br b) as [rv|]; [apply (IH rv); [lia | apply Hr] | subst bs; reflexivity].
Qed.

Lemma peel_line eol (started : bool) idx l hi x ls :
  (if started then l <= idx else idx < l) -> l <= idx + 1 -> idx < hi ->
  (if started then flat_map (fun y => eol :: y) (firstn (Z.to_nat (hi - idx)) (x :: ls))
   else intercalate [eol] (firstn (Z.to_nat (hi - l + 1)) (skipn (Z.to_nat (l - 1 - idx)) (x :: ls))))
  = ((if started then [eol] else []) ++ x)
    ++ flat_map (fun y => eol :: y) (firstn (Z.to_nat (hi - (idx + 1))) ls).
Proof.
  intros Hst Hl Hhi. destruct started.
  - replace (Z.to_nat (hi - idx)) with (S (Z.to_nat (hi - (idx + 1)))) by lia. reflexivity.
  - replace (Z.to_nat (l - 1 - idx)) with 0%nat by lia.
    replace (Z.to_nat (hi - l + 1)) with (S (Z.to_nat (hi - (idx + 1)))) by lia.
    apply intercalate_flat.
Qed.

(** the reader's invariant after [idx] lines: the head bound is not finished, it has begun iff
    [started], and what follows it is forward from its right side *)
Definition pend_ok (idx n : Z) (bs : list bof) (started : bool) : Prop :=
  match bs with
  | [] => started = false
  | Filler _ :: _ => False
  | Bound b :: bs' =>
      0 < left_of b /\ left_of b <= n
      /\ (if started then left_of b <= idx else idx < left_of b)
      /\ match br b with
         | SSome rv => left_of b <= rv /\ rv <= n /\ idx < rv /\ fwd_ok rv n bs'
         | SCont => bs' = []
         end
  end.

Lemma fwd_ok_pend n bs lo idx : idx < lo -> fwd_ok lo n bs -> pend_ok idx n bs false.
Proof.
  destruct bs as [|[b|f] bs']; cbn [fwd_ok pend_ok]; [reflexivity | | tauto].
  destruct (br b); intuition lia.
Qed.

Lemma pend_ok_fwd idx n b bs started :
  pend_ok idx n (Bound b :: bs) started -> fwd_ok (left_of b) n (Bound b :: bs).
Proof. cbn [fwd_ok pend_ok]. destruct (br b); intuition lia. Qed.

Lemma fwd_step o x ls : forall bs idx started,
  0 <= idx ->
  pend_ok idx (idx + 1 + Z.of_nat (length ls)) bs started ->
  rem o idx (x :: ls) bs started
  = fst (fst (fwd_bounds o bs started (idx + 1) x))
    ++ rem o (idx + 1) ls (snd (fst (fwd_bounds o bs started (idx + 1) x))) (snd (fwd_bounds o bs started (idx + 1) x))
  /\ pend_ok (idx + 1) (idx + 1 + Z.of_nat (length ls))
             (snd (fst (fwd_bounds o bs started (idx + 1) x))) (snd (fwd_bounds o bs started (idx + 1) x)).
Proof.
  induction bs as [|[b|f] bs IH]; intros idx started Hidx Hok;
    [cbn in Hok; subst started; split; reflexivity | | contradiction].
  set (n := idx + 1 + Z.of_nat (length ls)) in *.
  set (hi := match br b with SSome r => r | SCont => n end).
  pose proof (pend_ok_fwd _ _ _ _ _ Hok) as Hfwd.
  cbn [pend_ok] in Hok. destruct Hok as (Hl0 & Hln & Hst & Hr).
  assert (Hhi : left_of b <= hi /\ idx < hi <= n) by (subst hi n; destruct (br b); lia).
  cbn [fwd_bounds]. rewrite (matches_upto b (idx + 1) n) by (destruct (br b); lia). fold hi.
  destruct (Z.leb_spec (left_of b) (idx + 1)) as [Hin|Hfut].
  - (* the line belongs to the bound *)
    rewrite (proj2 (Z.leb_le (idx + 1) hi)) by lia. cbn [andb].
    rewrite (rem_bound _ _ _ _ _ _ n) by (subst n; cbn [length]; lia). fold hi. cbv zeta.
    rewrite (peel_line _ _ _ _ _ _ _ Hst Hin) by lia.
    subst hi. destruct (br b) as [rv|] eqn:Ebr; cbn [side_eqb];
      [destruct Hr as (_ & _ & _ & Hrest); destruct (Z.eqb_spec rv (idx + 1)) as [->|Hmore] | subst bs].
    + (* and it is its last line: the next bounds are tried on the same line *)
      destruct (IH idx false Hidx (fwd_ok_pend n bs (idx + 1) idx ltac:(lia) Hrest)) as [IH1 IH2].
      destruct (fwd_bounds o bs false (idx + 1) x) as [[out' rest'] a']. cbn [fst snd] in *.
      split; [|exact IH2].
      rewrite IH1, Z.sub_diag. cbn [Z.to_nat firstn flat_map]. rewrite app_nil_r, <- !app_assoc. reflexivity.
    + (* more lines of this bound follow *)
      cbn [fst snd]. split; [|cbn [pend_ok]; rewrite Ebr; intuition lia].
      rewrite (rem_bound _ _ _ _ _ _ n), Ebr by reflexivity.
      rewrite (rem_shift o x ls bs rv idx ltac:(lia) Hrest), <- !app_assoc. reflexivity.
    + cbn [fst snd]. split; [|cbn [pend_ok]; rewrite Ebr; intuition lia].
      rewrite (rem_bound _ _ _ _ _ _ n), Ebr by reflexivity. rewrite <- !app_assoc. reflexivity.
  - (* the bound starts later *)
    destruct started; [lia|]. cbn [andb fst snd app]. split.
    + apply (rem_shift o x ls _ (left_of b)); [lia | exact Hfwd].
    + apply (fwd_ok_pend _ _ (left_of b)); [lia | exact Hfwd].
Qed.

Lemma fwd_lines_spec o : forall ls bs started idx acc,
  0 <= idx ->
  pend_ok idx (idx + Z.of_nat (length ls)) bs started ->
  Forall (fun l => utf8_valid l = true) ls ->
  fwd_lines o ls bs started idx acc = Done (acc ++ rem o idx ls bs started ++ [o_eol o]).
Proof.
  induction ls as [|x ls IH]; intros bs started idx acc Hidx Hok Hutf.
  - cbn [fwd_lines length] in *. rewrite Z.add_0_r in Hok.
    destruct bs as [|[b|f] bs']; cbn [pend_ok] in Hok; [| |contradiction].
    + subst started. reflexivity.
    + destruct Hok as [A [B [C D]]]. destruct started; [|lia].
      destruct (br b) as [rv|] eqn:Ebr; [destruct D as [_ [D2 [D3 _]]]; lia|]. subst bs'.
      cbn [fwd_finish fwd_tail rem]. rewrite Ebr. cbn [length]. rewrite firstn_nil. cbn [flat_map app].
      unfold lsep. cbn [nonempty]. rewrite andb_false_r. reflexivity.
  - cbn [fwd_lines]. rewrite (Forall_inv Hutf). cbn [negb].
    replace (idx + Z.of_nat (length (x :: ls))) with (idx + 1 + Z.of_nat (length ls)) in Hok by (cbn [length]; lia).
    destruct (fwd_step o x ls bs idx started Hidx Hok) as [H1 H2].
    destruct (fwd_bounds o bs started (idx + 1) x) as [[out rest] a]. cbn [fst snd] in *.
    rewrite H1. destruct rest as [|r0 rest']; [cbn [rem]; rewrite app_nil_r; reflexivity|].
    rewrite (IH (r0 :: rest') a (idx + 1) (acc ++ out) ltac:(lia) H2 (Forall_inv_tail Hutf)), <- !app_assoc.
    reflexivity.
Qed.

Fixpoint last_marked (bs : list bof) : Prop :=
  match bs with
  | [] => True
  | Bound b :: bs' => blast b = negb (nonempty bs') /\ last_marked bs'
  | Filler _ :: bs' => last_marked bs'
  end.

Lemma rem_is_spec_items o L : forall bs lo,
  fwd_ok lo (Z.of_nat (length L)) bs -> last_marked bs ->
  spec_items L (o_fallback o) (o_join o) [o_eol o] bs = Some (rem o 0 L bs false).
Proof.
  induction bs as [|[b|f] bs IH]; intros lo Hok Hlm; cbn [fwd_ok] in Hok;
    [reflexivity | | contradiction].
  destruct Hok as (A & B & C & D). destruct Hlm as [M1 M2].
  set (n := Z.of_nat (length L)) in *.
  set (hi := match br b with SSome rv => rv | SCont => n end).
  assert (Hhi : left_of b <= hi <= n) by (subst hi; destruct (br b); lia).
  assert (Hrest : spec_items L (o_fallback o) (o_join o) [o_eol o] bs = Some (rem o 0 L bs false)).
  { destruct (br b) as [rv|]; [apply (IH rv); [apply D | exact M2] | subst bs; reflexivity]. }
  cbn [spec_items]. rewrite (rem_bound _ _ _ _ _ _ n), Hrest by reflexivity.
  rewrite try_into_range_present; [| exact B | exact C | destruct (br b); [lia | exact I]].
  fold n hi. cbv zeta. cbn [option_map]. unfold lsep. rewrite M1, negb_involutive, Z.sub_0_r.
  replace (Z.to_nat hi - Z.to_nat (left_of b - 1))%nat with (Z.to_nat (hi - left_of b + 1)) by lia.
  reflexivity.
Qed.

(** C05, forward algorithm: for every input of n >= 1 valid lines and every ascending list of
    plain bounds resolvable on it, exactly the selected lines, in request order, separated by
    the EOL (or concatenated under --no-join), then one EOL *)
Theorem C05_forward o L bs :
  L <> [] -> bs <> [] -> fwd_ok 1 (Z.of_nat (length L)) bs -> last_marked bs ->
  Forall (fun l => utf8_valid l = true) L ->
  exists x, spec_items L (o_fallback o) (o_join o) [o_eol o] bs = Some x
            /\ fwd_lines o L bs false 0 [] = Done (x ++ [o_eol o]).
Proof.
  intros HL Hbs Hok Hlm Hutf. exists (rem o 0 L bs false). split.
  - exact (rem_is_spec_items o L bs 1 Hok Hlm).
  - rewrite (fwd_lines_spec o L bs false 0 []); [reflexivity | lia | | exact Hutf].
    apply (fwd_ok_pend _ _ 1); [lia | exact Hok].
Qed.

Theorem C05_buffered_same o input bs x :
  plain_opts o (o_eol o) -> o_trim o = None -> o_only_delimited o = false -> o_replace o = None ->
  items (o_bounds o) = bs -> Forall item_nz bs ->
  utf8_valid input = true -> input <> [] -> strip_one_suffix (o_eol o) input <> [] ->
  spec_items (records (o_eol o) input) (o_fallback o) (o_join o) [o_eol o] bs = Some x ->
  cut_lines_buffered o input = Some (Done (x ++ [o_eol o])).
Proof.
  intros Hpl Ht Hs Hrp Hb Hnz Hu Hi Hst Hx. unfold cut_lines_buffered. rewrite Hu. cbn [negb].
  rewrite (general_plain_record o (o_eol o) _ Hpl Ht Hs Hst); [|rewrite Hb; exact Hnz].
  rewrite (C05_same_lines (o_eol o) input Hi).
  assert (Hrep : rep_of o (o_eol o) = [o_eol o]) by (unfold rep_of; rewrite Hrp; reflexivity).
  rewrite Hrep, Hb, Hx. reflexivity.
Qed.
