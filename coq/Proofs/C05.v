(** C05: both line algorithms index the same list of lines; a single trailing EOL never
    counts as an extra empty line. *)
From TucModel Require Import Base.Bytes Model.BoundsParse Model.Scan
     Model.CutStr Model.CutLines Proofs.ScanSplit.

(** the lines of the statement: split at every EOL, minus one trailing empty piece *)
Definition drop_last_empty (ps : list bytes) : list bytes :=
  match rev ps with
  | [] :: r => rev r
  | _ => ps
  end.

Definition prepend (c : bytes) (ps : list bytes) : list bytes :=
  match ps with
  | p :: ps' => (c ++ p) :: ps'
  | [] => [c]
  end.

Lemma split_on_cons c s : exists p ps, split_on c s = p :: ps.
Proof.
  destruct s as [|x s]; cbn [split_on]; [eauto|].
  destruct (N.eqb x c); [eauto|]. destruct (split_on c s); eauto.
Qed.

Lemma split_on_ne c s : split_on c s <> [].
Proof. destruct (split_on_cons c s) as (p & ps & ->). discriminate. Qed.

Lemma drop_last_empty_snoc_nil ps : drop_last_empty (ps ++ [[]]) = ps.
Proof. unfold drop_last_empty. rewrite rev_app_distr. apply rev_involutive. Qed.

Lemma drop_last_empty_snoc_ne ps p : p <> [] -> drop_last_empty (ps ++ [p]) = ps ++ [p].
Proof.
  intros Hp. unfold drop_last_empty. rewrite rev_app_distr. destruct p; [contradiction | reflexivity].
Qed.

Lemma drop_last_empty_cons p ps : ps <> [] -> drop_last_empty (p :: ps) = p :: drop_last_empty ps.
Proof.
  intros Hne. destruct (exists_last Hne) as (qs & q & ->). rewrite app_comm_cons. destruct q.
  - rewrite !drop_last_empty_snoc_nil. reflexivity.
  - rewrite !drop_last_empty_snoc_ne by discriminate. reflexivity.
Qed.

(** the record reader delivers exactly those lines *)
Lemma records_aux_spec eol : forall l cur,
  records_aux eol cur l = drop_last_empty (prepend (rev cur) (split_on eol l)).
Proof.
  induction l as [|x l IH]; intros cur; cbn [records_aux split_on].
  - cbn [prepend]. rewrite app_nil_r. destruct cur as [|c cur]; [reflexivity|].
    unfold drop_last_empty. cbn [rev]. destruct (rev cur); reflexivity.
  - rewrite !IH. destruct (split_on_cons eol l) as (p & ps & ->).
    destruct (N.eqb x eol); cbn [prepend rev app].
    + rewrite app_nil_r. symmetry. apply drop_last_empty_cons. discriminate.
    + rewrite <- app_assoc. reflexivity.
Qed.

Theorem records_spec eol l : records eol l = drop_last_empty (split_on eol l).
Proof.
  unfold records. rewrite records_aux_spec. destruct (split_on_cons eol l) as (p & ps & ->). reflexivity.
Qed.

Lemma split_on_snoc eol l : split_on eol (l ++ [eol]) = split_on eol l ++ [[]].
Proof.
  induction l as [|x l IH]; cbn [app split_on].
  - rewrite N.eqb_refl. reflexivity.
  - rewrite IH. destruct (split_on_cons eol l) as (p & ps & ->). destruct (N.eqb x eol); reflexivity.
Qed.

Lemma split_on_last_nonempty eol l x : N.eqb x eol = false ->
  exists ps p, split_on eol (l ++ [x]) = ps ++ [p] /\ p <> [].
Proof.
  intros Hx. induction l as [|y l IH]; cbn [app split_on].
  - rewrite Hx. exists [], [x]. split; [reflexivity | discriminate].
  - destruct IH as [ps [p [E Hp]]]. rewrite E. destruct (N.eqb y eol).
    + exists ([] :: ps), p. split; [reflexivity | exact Hp].
    + destruct ps as [|q ps]; cbn [app].
      * exists [], (y :: p). split; [reflexivity | discriminate].
      * exists ((y :: q) :: ps), p. split; [reflexivity | exact Hp].
Qed.

Lemma strip_one_suffix_snoc eol l x :
  strip_one_suffix eol (l ++ [x]) = if N.eqb x eol then l else l ++ [x].
Proof.
  unfold strip_one_suffix. rewrite rev_app_distr. cbn [rev app]. rewrite rev_involutive. reflexivity.
Qed.

(** the buffered algorithm strips one trailing EOL and splits at every EOL: it indexes the
    same lines as the one-line-at-a-time reader, for every input other than the empty one *)
Theorem C05_same_lines eol input : input <> [] ->
  split_on eol (strip_one_suffix eol input) = records eol input.
Proof.
  intros Hne. destruct (exists_last Hne) as (l & x & ->).
  rewrite records_spec, strip_one_suffix_snoc. destruct (N.eqb x eol) eqn:Ex.
  - apply N.eqb_eq in Ex. subst x. rewrite split_on_snoc, drop_last_empty_snoc_nil. reflexivity.
  - destruct (split_on_last_nonempty eol l x Ex) as (ps & p & -> & Hp).
    symmetry. apply drop_last_empty_snoc_ne, Hp.
Qed.

(** splitting at a one-byte EOL is the general splitter of the model (what cut_str does
    with the EOL as delimiter) *)
Lemma split_go_byte eol : forall l cur,
  split_go [eol] 0 cur l = prepend (rev cur) (split_on eol l).
Proof.
  induction l as [|x l IH]; intros cur; cbn [split_go split_on].
  - cbn [prepend]. rewrite app_nil_r. reflexivity.
  - unfold starts_with. cbn [strip_prefix]. rewrite (N.eqb_sym eol x), !IH.
    destruct (split_on_cons eol l) as (p & ps & ->).
    destruct (N.eqb x eol); cbn [length Nat.sub prepend rev app].
    + rewrite app_nil_r. reflexivity.
    + rewrite <- app_assoc. reflexivity.
Qed.

Lemma split_byte d l : split [d] l = split_on d l.
Proof.
  unfold split. rewrite split_go_byte. cbn [rev]. destruct (split_on d l) as [|p ps] eqn:E; [|reflexivity].
  exfalso. exact (split_on_ne _ _ E).
Qed.

Theorem C05_buffered_fields_are_the_lines eol input :
  input <> [] -> strip_one_suffix eol input <> [] ->
  pieces (strip_one_suffix eol input)
         (fields_of_matches (lit_matches [eol] (strip_one_suffix eol input)) (strip_one_suffix eol input))
  = records eol input.
Proof.
  intros Hne Hs. rewrite (scan_ranges_split [eol] _ ltac:(discriminate) Hs).
  rewrite split_byte. apply C05_same_lines, Hne.
Qed.
