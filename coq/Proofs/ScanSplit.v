(** The ranges pushed by fill_with_fields_locations cut the line into exactly its fields. *)
From TucModel Require Import Base.Bytes Base.ListX Model.Scan Spec.Fields.

Lemma strip_prefix_some d l r : strip_prefix d l = Some r -> l = d ++ r.
Proof.
  revert l; induction d as [|x d IH]; intros l H; cbn in *.
  - injection H as <-. reflexivity.
  - destruct l as [|y l]; [discriminate|]. destruct (N.eqb_spec x y) as [<-|]; [|discriminate].
    f_equal. apply IH, H.
Qed.

Lemma strip_prefix_app d r : strip_prefix d (d ++ r) = Some r.
Proof. induction d as [|x d IH]; cbn; [reflexivity|]. rewrite N.eqb_refl. exact IH. Qed.

Lemma starts_with_true d l : starts_with d l = true <-> exists r, l = d ++ r.
Proof.
  unfold starts_with. split.
  - destruct (strip_prefix d l) as [r|] eqn:E; [|discriminate]. intros _. exists r.
    apply strip_prefix_some, E.
  - intros [r ->]. rewrite strip_prefix_app. reflexivity.
Qed.

Lemma skipn_length_le {A} (l : list A) p x rest : skipn p l = x :: rest -> p < length l.
Proof.
  intros H. destruct (Nat.lt_ge_cases p (length l)) as [|Hge]; [assumption|].
  rewrite skipn_all2 in H by exact Hge. discriminate.
Qed.

Lemma intercalate_cons d p ps : ps <> [] -> intercalate d (p :: ps) = p ++ d ++ intercalate d ps.
Proof. destruct ps; [contradiction | reflexivity]. Qed.

(** the value-level scan that the offset-level one is compared with *)
Fixpoint split_go (d : bytes) (skip : nat) (cur : bytes) (l : bytes) : list bytes :=
  match l with
  | [] => [rev cur]
  | x :: l' =>
      match skip with
      | S k => split_go d k cur l'
      | O => if starts_with d l then rev cur :: split_go d (length d - 1) [] l'
             else split_go d 0 (x :: cur) l'
      end
  end.

Definition split (d l : bytes) : list bytes := split_go d 0 [] l.

Definition pieces (line : bytes) (rs : list mtch) : list bytes :=
  map (fun r => slice line (fst r) (snd r)) rs.

Lemma starts_with_length d l : starts_with d l = true -> length d <= length l.
Proof. intros H. apply starts_with_true in H. destruct H as [r ->]. rewrite app_length. lia. Qed.

Lemma gaps_from_cons start ms len : exists e gs, gaps_from start ms len = ((start, e) : mtch) :: gs.
Proof. destruct ms; cbn [gaps_from]; eauto. Qed.

Lemma fields_of_matches_ne ms line : line <> [] -> fields_of_matches ms line = gaps_from 0 ms (length line).
Proof. destruct line; [contradiction | reflexivity]. Qed.

(** scanning for a non-empty delimiter: at each position either the delimiter starts there (a
    hit: the scan resumes after it) or it does not (a miss: the scan moves on by one byte);
    [skip] only counts down the bytes of a hit *)
Lemma scan_ind d (P : bytes -> Prop) :
  d <> [] -> P [] -> (forall r, P r -> P (d ++ r)) ->
  (forall x l, starts_with d (x :: l) = false -> P l -> P (x :: l)) ->
  forall l, P l.
Proof.
  intros Hd Hnil Hhit Hmiss l.
  assert (G : forall n l, length l <= n -> P l); [|exact (G (length l) l (Nat.le_refl _))].
  clear l. induction n as [|n IH]; intros l Hl; (destruct l as [|x l]; [exact Hnil|]); [cbn in Hl; lia|].
  destruct (starts_with d (x :: l)) eqn:E.
  - apply starts_with_true in E. destruct E as [r E]. rewrite E. apply Hhit, IH.
    apply (f_equal (@length _)) in E. rewrite app_length in E. destruct d; [contradiction | cbn in *; lia].
  - apply Hmiss; [exact E | apply IH; cbn in Hl; lia].
Qed.

Lemma starts_with_app d r : starts_with d (d ++ r) = true.
Proof. apply starts_with_true. exists r. reflexivity. Qed.

Lemma find_iter_skip d : forall a pos r,
  find_iter_aux d (length a) pos (a ++ r) = find_iter_aux d 0 (pos + length a) r.
Proof.
  induction a as [|x a IH]; intros pos r; cbn [length app find_iter_aux]; [rewrite Nat.add_0_r; reflexivity|].
  rewrite IH. f_equal. lia.
Qed.

Lemma find_iter_nil d pos : d <> [] -> find_iter_aux d 0 pos [] = [].
Proof. destruct d; [contradiction | reflexivity]. Qed.

Lemma find_iter_hit d pos r : d <> [] ->
  find_iter_aux d 0 pos (d ++ r) = pos :: find_iter_aux d 0 (pos + length d) r.
Proof.
  intros Hd. pose proof (starts_with_app d r) as E. destruct d as [|c d]; [contradiction|].
  cbn [app] in *. cbn [find_iter_aux]. rewrite E. cbn [length]. rewrite Nat.sub_succ, Nat.sub_0_r, find_iter_skip.
  do 2 f_equal. lia.
Qed.

Lemma find_iter_miss d pos x l : starts_with d (x :: l) = false ->
  find_iter_aux d 0 pos (x :: l) = find_iter_aux d 0 (S pos) l.
Proof. intros E. cbn [find_iter_aux]. rewrite E. reflexivity. Qed.

Lemma split_go_skip d : forall a cur r, split_go d (length a) cur (a ++ r) = split_go d 0 cur r.
Proof. induction a as [|x a IH]; intros cur r; [reflexivity | exact (IH cur r)]. Qed.

Lemma split_go_hit d cur r : d <> [] -> split_go d 0 cur (d ++ r) = rev cur :: split_go d 0 [] r.
Proof.
  intros Hd. pose proof (starts_with_app d r) as E. destruct d as [|c d]; [contradiction|].
  cbn [app] in *. cbn [split_go]. rewrite E. cbn [length]. rewrite Nat.sub_succ, Nat.sub_0_r, split_go_skip.
  reflexivity.
Qed.

Lemma split_go_miss d cur x l : starts_with d (x :: l) = false ->
  split_go d 0 cur (x :: l) = split_go d 0 (x :: cur) l.
Proof. intros E. cbn [split_go]. rewrite E. reflexivity. Qed.

Lemma split_go_nonempty d skip cur l : split_go d skip cur l <> [].
Proof.
  revert skip cur; induction l as [|x l IH]; intros skip cur; cbn [split_go]; [discriminate|].
  destruct skip; [|apply IH]. destruct (starts_with d (x :: l)); [discriminate | apply IH].
Qed.

Definition occurrence (line d : bytes) (m : mtch) : Prop :=
  snd m = fst m + length d /\ slice line (fst m) (snd m) = d.

Lemma lit_matches_occ d line : d <> [] -> Forall (occurrence line d) (lit_matches d line).
Proof.
  intros Hd. unfold lit_matches, find_iter.
  enough (G : forall l pre, Forall (occurrence (pre ++ l) d)
                                   (map (fun p => (p, p + length d)) (find_iter_aux d 0 (length pre) l)))
    by exact (G line []).
  refine (scan_ind d _ Hd _ _ _).
  - intros pre. rewrite find_iter_nil by exact Hd. constructor.
  - intros r IH pre. rewrite find_iter_hit by exact Hd. constructor.
    + split; [reflexivity | apply slice_app_mid].
    + specialize (IH (pre ++ d)). rewrite app_length, <- app_assoc in IH. exact IH.
  - intros x l E IH pre. rewrite find_iter_miss by exact E.
    specialize (IH (pre ++ [x])). rewrite app_length, <- app_assoc, Nat.add_1_r in IH. exact IH.
Qed.

(** offset-level scan = value-level scan: with the record cut as [p0 ++ c ++ l], [p0] the fields
    already closed and [c] the part of the current field already read *)
Lemma scan_ranges_from d : d <> [] -> forall l p0 c line start pos,
  line = p0 ++ c ++ l -> start = length p0 -> pos = start + length c ->
  pieces line (gaps_from start (map (fun p => (p, p + length d)) (find_iter_aux d 0 pos l)) (length line))
  = split_go d 0 (rev c) l.
Proof.
  intros Hd. refine (scan_ind d _ Hd _ _ _).
  - intros p0 c line start pos -> -> ->. rewrite find_iter_nil by exact Hd.
    cbn [map gaps_from pieces split_go fst snd]. rewrite rev_involutive, !app_length, Nat.add_0_r.
    f_equal. apply slice_app_mid.
  - intros r IH p0 c line start pos -> -> ->. rewrite find_iter_hit, split_go_hit by exact Hd.
    cbn [map gaps_from pieces fst snd]. rewrite rev_involutive. f_equal; [apply slice_app_mid|].
    apply (IH (p0 ++ c ++ d) []); [rewrite <- !app_assoc; reflexivity | |]; rewrite ?app_length; cbn [length]; lia.
  - intros x l E IH p0 c line start pos -> -> ->. rewrite find_iter_miss, split_go_miss by exact E.
    rewrite <- rev_unit. apply (IH p0 (c ++ [x])); [rewrite <- app_assoc; reflexivity | reflexivity|].
    rewrite app_length. cbn [length]. lia.
Qed.

Lemma plain_table_pieces d line : d <> [] ->
  pieces line (gaps_from 0 (lit_matches d line) (length line)) = split d line.
Proof. intros Hd. exact (scan_ranges_from d Hd line [] [] line 0 0 eq_refl eq_refl eq_refl). Qed.

Lemma plain_table_length d line : d <> [] ->
  length (gaps_from 0 (lit_matches d line) (length line)) = length (split d line).
Proof. intros Hd. rewrite <- (plain_table_pieces d line Hd). symmetry. apply map_length. Qed.

Theorem scan_ranges_split d line : d <> [] -> line <> [] ->
  pieces line (fields_of_matches (lit_matches d line) line) = split d line.
Proof. intros Hd Hl. rewrite (fields_of_matches_ne _ line Hl). apply plain_table_pieces, Hd. Qed.

Lemma occ_starts_with d (a b : bytes) : starts_with d (skipn (length a) (a ++ d ++ b)) = true.
Proof. rewrite skipn_app_length. apply starts_with_app. Qed.

Definition no_occ_before (d l : bytes) (k : nat) : Prop :=
  forall p, p < k -> starts_with d (skipn p l) = false.

Lemma no_occ_before_0 d l : no_occ_before d l 0.
Proof. intros p Hp. lia. Qed.

Lemma split_go_spec d : d <> [] -> forall l cur,
  no_occ_before d (rev cur ++ l) (length cur) ->
  intercalate d (split_go d 0 cur l) = rev cur ++ l /\ leftmost_fields d (split_go d 0 cur l).
Proof.
  intros Hd. refine (scan_ind d _ Hd _ _ _).
  - intros cur Hno. cbn [split_go intercalate leftmost_fields]. rewrite app_nil_r in *. split; [reflexivity|].
    (* an occurrence inside the last field would start before its end *)
    intros [a [b E]]. rewrite E in Hno. specialize (Hno (length a)).
    rewrite occ_starts_with in Hno. enough (length a < length cur) by (specialize (Hno H); discriminate).
    rewrite <- (rev_length cur), E, !app_length. destruct d; [contradiction | cbn; lia].
  - intros r IH cur Hno. rewrite split_go_hit by exact Hd.
    destruct (IH [] (no_occ_before_0 d _)) as [I1 I2].
    pose proof (split_go_nonempty d 0 [] r) as Hne. split.
    + rewrite intercalate_cons, I1 by exact Hne. reflexivity.
    + destruct (split_go d 0 [] r) as [|q qs]; [contradiction|]. split; [|exact I2].
      (* an earlier occurrence in [rev cur ++ d] would start inside [rev cur] *)
      intros a b E. destruct b as [|y b]; [reflexivity|]. exfalso.
      assert (Hlen : length a < length cur).
      { apply (f_equal (@length _)) in E. rewrite !app_length, rev_length in E. cbn in E. lia. }
      specialize (Hno (length a) Hlen). rewrite app_assoc, E, <- !app_assoc, occ_starts_with in Hno. discriminate.
  - intros x l E IH cur Hno. rewrite split_go_miss by exact E.
    assert (Ex : rev (x :: cur) ++ l = rev cur ++ x :: l) by (cbn [rev]; rewrite <- app_assoc; reflexivity).
    rewrite <- Ex. apply IH. rewrite Ex. intros p Hp. cbn [length] in Hp.
    destruct (Nat.eq_dec p (length cur)) as [->|Hne]; [|apply Hno; lia].
    rewrite <- rev_length, skipn_app_length. exact E.
Qed.

Theorem split_is_split d line : d <> [] -> is_split d line (split d line).
Proof. intros Hd. exact (split_go_spec d Hd line [] (no_occ_before_0 d _)). Qed.

(** C01 core: the byte ranges pushed by fill_with_fields_locations cut a non-empty record
    into exactly the fields of the statement, for every non-empty delimiter
    (self-overlapping ones included) *)
Theorem fields_locations_are_fields d line : d <> [] -> line <> [] ->
  is_split d line (pieces line (fields_of_matches (lit_matches d line) line)).
Proof. intros Hd Hl. rewrite (scan_ranges_split d line Hd Hl). apply split_is_split, Hd. Qed.
