(** C16: with a regex delimiter the fields are exactly the gaps between successive
    leftmost non-overlapping matches: matches and gaps tile the record, in order. *)
From TucModel Require Import Base.Bytes Base.ListX Model.Scan Model.Regex
     Proofs.ScanSplit Proofs.C12.

Fixpoint weave (line : bytes) (start : nat) (ms : list mtch) (len : nat) : bytes :=
  match ms with
  | [] => slice line start len
  | m :: ms' => slice line start (fst m) ++ slice line (fst m) (snd m) ++ weave line (snd m) ms' len
  end.

(** no byte of the record is lost, altered or reordered by splitting at the matches *)
Theorem weave_is_the_line line : forall ms start len,
  wf_ms start ms len -> weave line start ms len = slice line start len.
Proof.
  induction ms as [|m ms IH]; intros start len Hwf; cbn [weave]; [reflexivity|].
  destruct Hwf as [A [B C]]. rewrite (IH _ _ C). pose proof (wf_ms_le _ _ _ C) as D.
  rewrite <- (slice_split line (fst m) (snd m) len B D).
  rewrite <- (slice_split line start (fst m) len A ltac:(lia)). reflexivity.
Qed.

Lemma weave_gaps line : forall ms start len,
  pieces line (gaps_from start ms len)
  = (fix gaps (start : nat) (ms : list mtch) :=
       match ms with
       | [] => [slice line start len]
       | m :: ms' => slice line start (fst m) :: gaps (snd m) ms'
       end) start ms.
Proof. induction ms as [|m ms IH]; intros start len; cbn [gaps_from pieces map fst snd]; [reflexivity|]. f_equal. apply IH. Qed.

Lemma match_len_le r l n : match_len r l = Some n -> n <= length l.
Proof. unfold match_len. destruct (m r l _); [|discriminate]. intros [= <-]. lia. Qed.

(** the mini engine yields sorted, non-overlapping, non-empty, in-range matches *)
Lemma re_find_wf r : forall l skip pos,
  wf_ms (pos + skip) (re_find_aux r skip pos l) (Nat.max (pos + length l) (pos + skip))
  /\ Forall (fun m => fst m < snd m) (re_find_aux r skip pos l).
Proof.
  induction l as [|x l IH]; intros skip pos; cbn [re_find_aux].
  - split; [cbn [wf_ms length]; lia | constructor].
  - (* where the scan just moves on to the next position *)
    assert (Hnext : forall k, pos + skip <= S pos + k -> S pos + k <= Nat.max (pos + S (length l)) (pos + skip) ->
              wf_ms (pos + skip) (re_find_aux r k (S pos) l) (Nat.max (pos + length (x :: l)) (pos + skip))
              /\ Forall (fun m => fst m < snd m) (re_find_aux r k (S pos) l)).
    { intros k H1 H2. destruct (IH k (S pos)) as [I1 I2]. split; [|exact I2].
      cbn [length]. eapply wf_ms_weaken; [| |exact I1]; lia. }
    destruct skip as [|k]; [|apply Hnext; lia].
    destruct (match_len r (x :: l)) as [[|n]|] eqn:E; [apply Hnext; lia | | apply Hnext; lia].
    pose proof (match_len_le _ _ _ E) as Hn. cbn [length] in Hn.
    destruct (IH n (S pos)) as [I1 I2]. split.
    + cbn [wf_ms fst snd length]. split; [lia|]. split; [lia|].
      eapply wf_ms_weaken; [| |exact I1]; lia.
    + constructor; [cbn [fst snd]; lia | exact I2].
Qed.

Theorem re_matches_wf r line :
  wf_ms 0 (re_find_iter r line) (length line) /\ Forall (fun m => fst m < snd m) (re_find_iter r line).
Proof.
  unfold re_find_iter. destruct (re_find_wf r line 0 0) as [H1 H2]. split; [|exact H2].
  rewrite !Nat.add_0_r, Nat.add_0_l, Nat.max_l in H1 by lia. exact H1.
Qed.

(** -r R inserts R literally wherever a match is replaced *)
Theorem replace_is_literal line rep : forall ms start,
  replace_matches_from line start ms rep
  = (fix go (start : nat) (ms : list mtch) :=
       match ms with
       | [] => skipn start line
       | m :: ms' => slice line start (fst m) ++ rep ++ go (snd m) ms'
       end) start ms.
Proof. induction ms as [|m ms IH]; intros start; cbn [replace_matches_from]; [reflexivity|]. rewrite IH. reflexivity. Qed.
