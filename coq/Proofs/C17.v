(** C17: in the accounting model a suffix of the pending items is no larger than the whole; the
    items the fixed-memory path ends a chunk with are such a suffix ([C04.scan_chunk_suffix]). *)
From TucModel Require Import Base.Bytes Model.Space.

Lemma items_size_suffix pre l : items_size l <= items_size (pre ++ l).
Proof.
  induction pre as [|x pre IH]; [apply le_n|]. etransitivity; [exact IH|].
  unfold items_size. cbn [app fold_right]. lia.
Qed.
