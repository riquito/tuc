(** C07: in character mode the fields of a valid UTF-8 record are exactly its scalar
    encodings, whole. *)
From TucModel Require Import Base.Bytes Base.ListX Model.Scan Model.Utf8 Model.CutStr Proofs.ScanSplit.

Lemma in_rng_ge lo hi b : (128 <= lo)%N -> in_rng lo hi b = true -> (128 <= b)%N.
Proof. unfold in_rng. intros Hlo H. apply andb_prop in H. destruct H as [H _]. apply N.leb_le in H. lia. Qed.

(** the second byte of a three- or four-byte sequence: its range depends on the first byte *)
Lemma second_ge (c1 c2 : bool) lo1 hi1 lo2 hi2 b : (128 <= lo1)%N -> (128 <= lo2)%N ->
  (if c1 then in_rng lo1 hi1 b else if c2 then in_rng lo2 hi2 b else is_cont b) = true -> (128 <= b)%N.
Proof. intros H1 H2. destruct c1; [|destruct c2]; apply in_rng_ge; (assumption || discriminate). Qed.

(** The third conjunct lets a head be recognised again in front of any remainder; by the fourth only the
    first byte of a sequence can be ASCII. *)
Lemma head_len_prefix l k : utf8_head_len l = Some k ->
  1 <= k <= 4 /\ k <= length l /\ (forall r, utf8_head_len (firstn k l ++ r) = Some k)
  /\ Forall (fun x => (128 <= x)%N) (tl (firstn k l)).
Proof.
  destruct l as [|b0 l]; [discriminate|]. unfold utf8_head_len at 1.
  destruct (b0 <? 128)%N eqn:E0;
    [|destruct (in_rng 194 223 b0) eqn:E2;
      [|destruct (in_rng 224 239 b0) eqn:E3; [|destruct (in_rng 240 244 b0) eqn:E4; [|discriminate]]]].
  - intros [= <-]. cbn [firstn app length tl]. repeat split; try lia; [|constructor].
    intros r. unfold utf8_head_len. rewrite E0. reflexivity.
  - destruct l as [|b1 l]; [discriminate|]. destruct (is_cont b1) eqn:E1; [|discriminate].
    intros [= <-]. cbn [firstn app length tl]. repeat split; try lia.
    + intros r. unfold utf8_head_len. rewrite E0, E2, E1. reflexivity.
    + repeat constructor. apply (in_rng_ge 128 191); [lia | exact E1].
  - destruct l as [|b1 [|b2 l]]; try discriminate.
    match goal with |- (if ?c then _ else _) = _ -> _ => destruct c eqn:E1 end; [|discriminate].
    intros [= <-]. cbn [firstn app length tl]. repeat split; try lia.
    + intros r. unfold utf8_head_len. rewrite E0, E2, E3, E1. reflexivity.
    + apply andb_prop in E1. destruct E1 as [Ea Eb]. repeat constructor.
      * apply second_ge in Ea; [exact Ea | lia | lia].
      * apply (in_rng_ge 128 191); [lia | exact Eb].
  - destruct l as [|b1 [|b2 [|b3 l]]]; try discriminate.
    match goal with |- (if ?c then _ else _) = _ -> _ => destruct c eqn:E1 end; [|discriminate].
    intros [= <-]. cbn [firstn app length tl]. repeat split; try lia.
    + intros r. unfold utf8_head_len. rewrite E0, E2, E3, E4, E1. reflexivity.
    + apply andb_prop in E1. destruct E1 as [E1 Ec]. apply andb_prop in E1. destruct E1 as [Ea Eb].
      repeat constructor.
      * apply second_ge in Ea; [exact Ea | lia | lia].
      * apply (in_rng_ge 128 191); [lia | exact Eb].
      * apply (in_rng_ge 128 191); [lia | exact Ec].
Qed.

Lemma utf8_chars_fuel_S f l : l <> [] ->
  utf8_chars_fuel (S f) l
  = match utf8_head_len l with
    | None => None
    | Some k => match utf8_chars_fuel f (skipn k l) with
                | None => None
                | Some cs => Some (firstn k l :: cs)
                end
    end.
Proof. destruct l; [contradiction | reflexivity]. Qed.

Lemma utf8_chars_fuel_spec : forall fuel l cs,
  utf8_chars_fuel fuel l = Some cs ->
  concat cs = l /\ Forall (fun c => utf8_head_len c = Some (length c)) cs.
Proof.
  induction fuel as [|f IH]; intros [|b l'] cs; cbn [utf8_chars_fuel]; try discriminate.
  1, 2: intros [= <-]; split; [reflexivity | constructor].
  destruct (utf8_head_len (b :: l')) as [k|] eqn:Ek; [|discriminate].
  destruct (utf8_chars_fuel f (skipn k (b :: l'))) as [cs'|] eqn:E; [|discriminate].
  intros [= <-]. destruct (IH _ _ E) as [H1 H2]. destruct (head_len_prefix _ _ Ek) as (_ & Hk & Hp & _).
  split.
  - cbn [concat]. rewrite H1. apply firstn_skipn.
  - constructor; [|exact H2]. rewrite firstn_length, Nat.min_l by exact Hk.
    rewrite <- (app_nil_r (firstn k _)) at 1. apply Hp.
Qed.

Lemma utf8_chars_fuel_concat : forall fuel l cs,
  utf8_chars_fuel fuel l = Some cs -> concat cs = l /\ Forall (fun c => c <> []) cs.
Proof.
  intros fuel l cs H. destruct (utf8_chars_fuel_spec _ _ _ H) as [H1 H2]. split; [exact H1|].
  apply (Forall_impl _ (P := fun c => utf8_head_len c = Some (length c))); [|exact H2].
  intros c Hc ->. discriminate.
Qed.

Fixpoint char_ranges (pos : nat) (cs : list bytes) : list mtch :=
  match cs with
  | [] => []
  | c :: cs' => (pos, pos + length c) :: char_ranges (pos + length c) cs'
  end.

Definition total (cs : list bytes) : nat := length (concat cs).

Lemma total_cons c cs : total (c :: cs) = length c + total cs.
Proof. apply app_length. Qed.

Lemma gaps_boundaries len : forall cs start pos,
  gaps_from start (map (fun p => (p, p)) (boundaries_from pos cs)) len
  = (start, pos) :: char_ranges pos cs ++ [(pos + total cs, len)].
Proof.
  induction cs as [|c cs IH]; intros start pos; cbn [boundaries_from map gaps_from fst snd char_ranges app].
  - cbn [total concat length]. rewrite Nat.add_0_r. reflexivity.
  - rewrite IH, total_cons, Nat.add_assoc. reflexivity.
Qed.

Lemma pieces_char_ranges : forall cs pre,
  pieces (pre ++ concat cs) (char_ranges (length pre) cs) = cs.
Proof.
  induction cs as [|c cs IH]; intros pre; [reflexivity|].
  cbn [char_ranges pieces map fst snd concat]. f_equal.
  - apply slice_app_mid.
  - fold (pieces (pre ++ c ++ concat cs)). rewrite app_assoc, <- app_length. apply IH.
Qed.

Lemma char_ranges_length : forall cs n, length (char_ranges n cs) = length cs.
Proof. induction cs as [|c cs IH]; intros n; [reflexivity|]. cbn. f_equal. apply IH. Qed.

Lemma drop_outer_mid {A} (a z : A) l : l <> [] -> drop_outer (a :: l ++ [z]) = l.
Proof.
  intros Hne. unfold drop_outer. replace (Nat.ltb 2 (length (a :: l ++ [z]))) with true.
  - apply removelast_last.
  - symmetry. apply Nat.ltb_lt. cbn [length]. rewrite app_length. destruct l; [contradiction | cbn; lia].
Qed.

Lemma char_matches_some line cs : utf8_chars line = Some cs ->
  char_matches line = Some (map (fun p => (p, p)) (boundaries_from 0 cs)).
Proof. intros Hu. unfold char_matches. rewrite Hu. reflexivity. Qed.

Lemma char_fields_table line cs ms :
  utf8_chars line = Some cs -> cs <> [] -> char_matches line = Some ms ->
  drop_outer (fields_of_matches ms line) = char_ranges 0 cs.
Proof.
  intros Hu Hne. rewrite (char_matches_some _ _ Hu). intros [= <-].
  destruct (utf8_chars_fuel_concat _ _ _ Hu) as [Hc Hn].
  unfold fields_of_matches. destruct line as [|b l'].
  - destruct Hn as [|c cs' Hc0 _]; [contradiction|]. destruct c; [contradiction | discriminate].
  - rewrite gaps_boundaries. apply drop_outer_mid.
    intros E. apply (f_equal (@length _)) in E. rewrite char_ranges_length in E.
    destruct cs; [contradiction | discriminate].
Qed.

Theorem chars_are_fields line cs :
  utf8_chars line = Some cs -> cs <> [] ->
  exists ms, char_matches line = Some ms
             /\ pieces line (drop_outer (fields_of_matches ms line)) = cs.
Proof.
  intros Hu Hne. pose proof (char_matches_some _ _ Hu) as Hm. eexists. split; [exact Hm|].
  rewrite (char_fields_table line cs _ Hu Hne Hm).
  destruct (utf8_chars_fuel_concat _ _ _ Hu) as [Hc _]. rewrite <- Hc at 1. apply (pieces_char_ranges cs []).
Qed.

Corollary fields_are_whole_scalars line cs :
  utf8_chars line = Some cs -> Forall (fun c => utf8_head_len c = Some (length c)) cs ->
  cs <> [] ->
  exists ms, char_matches line = Some ms
             /\ Forall (fun f => utf8_head_len f = Some (length f))
                       (pieces line (drop_outer (fields_of_matches ms line))).
Proof.
  intros Hu Hw Hne. destruct (chars_are_fields line cs Hu Hne) as [ms [H1 H2]].
  exists ms. split; [exact H1 | rewrite H2; exact Hw].
Qed.
