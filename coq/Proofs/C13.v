(** C13: an unresolvable bound prints its own fallback, else the generic one, else the run
    fails; a resolvable bound never consults a fallback. *)
From TucModel Require Import Base.Bytes Model.Bounds Model.CutBytes Model.Opt
     Spec.Resolve Proofs.BoundsFacts Proofs.C06 Proofs.C09 Proofs.C12.
Local Open Scope Z_scope.

(** the rule of the statement, written independently of the model *)
Definition fallback_rule (own generic : option bytes) : option bytes :=
  match own with
  | Some f => Some f
  | None => match generic with Some g => Some g | None => None end
  end.

Lemma fallback_for_rule b g : fallback_for b g = fallback_rule (bfb b) g.
Proof. unfold fallback_for, fallback_rule. destruct (bfb b); [reflexivity|]. destruct g; reflexivity. Qed.

Definition sep_of (o : opt) (b : ubound) : bytes :=
  if o_join o && negb (blast b)
  then match o_replace o with Some nd => nd | None => o_delim o end else [].

Lemma sep_of_out_sep o b : sep_of o b = out_sep o b.
Proof. reflexivity. Qed.

Lemma singles_from_resolve s c n :
  (s + c <= n)%nat ->
  Forall (fun u => exists i, (s <= i < s + c)%nat /\ try_into_range u n = Some (i, S i)) (singles_from s c).
Proof.
  revert s; induction c as [|c IH]; intros s H; cbn [singles_from]; constructor.
  - exists s. split; [lia|]. unfold single.
    rewrite try_into_range_index, pos_of_pos by (unfold in_parts; lia). f_equal. f_equal; lia.
  - specialize (IH (S s)). eapply Forall_impl; [|apply IH; lia].
    intros u [i [Hi E]]. exists i. split; [lia | exact E].
Qed.

Theorem C13_unpack_expands b n s e :
  bound_nz b -> try_into_range b n = Some (s, e) ->
  unpack_bound b n = singles_from s (e - s)
  /\ Forall (fun u => exists i, (s <= i < e)%nat /\ try_into_range u n = Some (i, S i)) (unpack_bound b n).
Proof.
  intros Hnz E. unfold unpack_bound. rewrite E. split; [reflexivity|].
  pose proof (try_into_range_some b n s e Hnz E) as [_ [_ [_ Hse]]].
  pose proof (singles_from_resolve s (e - s) n ltac:(lia)) as H.
  replace (s + (e - s))%nat with e in H by lia. exact H.
Qed.

Definition strip_fb (x : bof) : bof :=
  match x with Bound b => Bound (mkB (bl b) (br b) (blast b) None) | f => f end.
Definition with_fallback (o : opt) (g : option bytes) : opt :=
  mkOpt (o_delim o) (o_eol o) (o_bounds o) (o_btype o) (o_only_delimited o) (o_greedy o)
        (o_compress o) (o_replace o) (o_trim o) (o_complement o) (o_join o) (o_json o)
        (o_fixed_memory o) g (o_regex o).

Lemma strip_fb_same_output n g g' bs :
  Forall (item_resolves n) bs -> Forall2 (same_output n g g') bs (map strip_fb bs).
Proof.
  induction 1 as [|[b|f] bs R _ IH]; constructor; try exact IH; [|reflexivity].
  split; [reflexivity|]. split; [|reflexivity].
  intros E. destruct (try_into_range_none b n E R).
Qed.

(** --complement does not drop an unresolvable bound, so the output loop prints its fallback or
    fails the record *)
Theorem C13_complement_keeps l n b :
  In (Bound b) l -> bound_nz b -> ~ resolves b n -> In (Bound b) (complement_items l n).
Proof.
  intros Hin Hnz Hr. unfold complement_items. apply in_flat_map. exists (Bound b). split; [exact Hin|].
  unfold complement_bound. rewrite (proj2 (try_into_range_none_iff b n Hnz) Hr). left. reflexivity.
Qed.
