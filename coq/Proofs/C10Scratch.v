(** C10, the scratch buffers: whatever the reused vectors hold when a record arrives, the record is cut
    as by the stateless model; hence a whole run that threads the buffers from record to record prints
    what the stateless run prints. *)
From TucModel Require Import Base.Bytes Model.Bounds Model.Scan Model.Opt Model.CutStr Model.FastLane Model.Scratch Proofs.C01More.

Lemma fill_push_spec ms : forall buf prev len, fill_push buf prev ms len = buf ++ gaps_from prev ms len.
Proof.
  induction ms as [|m ms IH]; intros buf prev len; cbn [fill_push gaps_from]; unfold v_push.
  - reflexivity.
  - rewrite IH, <- app_assoc. reflexivity.
Qed.

Lemma fill_fields_spec buf ms line : fill_fields buf ms line = fields_of_matches ms line.
Proof.
  unfold fill_fields, fields_of_matches, v_clear. rewrite fill_push_spec. reflexivity.
Qed.

Lemma compress_push_spec d line ps : forall out prev, compress_push out d line prev ps = out ++ compress_from d line prev ps.
Proof.
  induction ps as [|idx ps IH]; intros out prev; cbn [compress_push compress_from]; unfold v_extend.
  - destruct (Nat.ltb prev (length line)); [reflexivity | rewrite app_nil_r; reflexivity].
  - rewrite IH. destruct (Nat.eqb idx 0).
    + rewrite <- app_assoc. reflexivity.
    + destruct (slice line prev idx); [reflexivity|]. rewrite <- !app_assoc. reflexivity.
Qed.

Lemma compress_st_spec out d line : compress_st out d line = compress_delimiter d line.
Proof. unfold compress_st, compress_delimiter, v_clear. rewrite compress_push_spec. reflexivity. Qed.

Lemma cut_fields_st o (f : list mtch) :
  (if btype_eqb (o_btype o) BChars && Nat.ltb 2 (length f) then v_drain1 (v_pop f) else f) = cut_fields o f.
Proof.
  unfold cut_fields, drop_outer, v_drain1, v_pop. destruct (btype_eqb (o_btype o) BChars); [|reflexivity].
  destruct (Nat.ltb 2 (length f)) eqn:E; [|reflexivity].
  destruct f as [|a [|b f]]; try discriminate. destruct f; reflexivity.
Qed.

Theorem cut_str_st_output : forall (s : scratch) (o : opt) (line0 : bytes),
  fst (cut_str_st s o line0) = cut_str o line0.
Proof.
  intros s o line0. rewrite cut_str_stages. unfold cut_str_st. fold (is_re o). fold (cut_guard o) (cut_trim o line0).
  destruct (cut_guard o); [reflexivity|].
  destruct (cut_trim o line0) as [[|x l1]|]; try reflexivity.
  unfold cut_matches, cut_compress, cut_split. rewrite compress_st_spec.
  (* -p by the regex, by the delimiter, or not at all; then the same splitter on both sides *)
  destruct (o_compress o && _);
    [destruct (o_regex o) as [rxv|]; [destruct (rx_greedy rxv (x :: l1)); [destruct (o_replace o)|]|]|]; try reflexivity.
  all: cbv beta iota; match goal with |- fst (match ?m with _ => _ end) = _ => destruct m as [ms|] end; [|reflexivity].
  all: cbn [fst option_map]; rewrite fill_fields_spec, cut_fields_st; reflexivity.
Qed.

(** the fast lane's vector of field starts: cleared, then 0, then one push per delimiter up to the
    early stop, then the fake start *)
Lemma scan_push_spec lif ps : forall v curr,
  scan_push v lif curr ps = (v ++ fst (scan_starts lif curr ps), snd (scan_starts lif curr ps)).
Proof.
  induction ps as [|i ps IH]; intros v curr; cbn [scan_push scan_starts fst snd]; unfold v_push.
  - rewrite app_nil_r. reflexivity.
  - destruct (side_eqb (SSome (curr + 1)%Z) lif); cbn [fst snd]; [reflexivity|].
    rewrite IH. destruct (scan_starts lif (curr + 1)%Z ps) as [r c]. rewrite <- app_assoc. reflexivity.
Qed.

Theorem cut_fast_st_output : forall (s : scratch) (o : opt) (line0 : bytes),
  fst (cut_fast_st s o line0) = cut_fast o line0.
Proof.
  intros s o line0. unfold cut_fast_st, cut_fast.
  destruct (o_delim o) as [|d [|d2 ds]]; try reflexivity.
  destruct (match o_trim o with Some k => _ | None => _ end) as [|x buf]; [reflexivity|].
  rewrite scan_push_spec. unfold v_clear, v_push. cbn [app].
  destruct (scan_starts (lif (o_bounds o)) 0 (positions_from d 0 (x :: buf))) as [starts curr]. cbn [fst snd].
  destruct (Z.eqb curr 0 && o_only_delimited o); [reflexivity|].
  destruct (side_eqb (SSome curr) (lif (o_bounds o))); cbn [fst]; rewrite ?app_nil_r, <- ?app_assoc; reflexivity.
Qed.

Lemma run_records_st_output (cut_st : scratch -> bytes -> option rres * scratch) (cut : bytes -> option rres) :
  (forall s r, fst (cut_st s r) = cut r) ->
  forall rs acc s, fst (run_records_st cut_st rs acc s) = run_records cut rs acc.
Proof.
  intros H rs. induction rs as [|r rs IH]; intros acc s; [reflexivity|].
  cbn [run_records_st run_records]. specialize (H s r). destruct (cut_st s r) as [x s']. cbn [fst] in H. subst x.
  destruct (cut r) as [[o| | |]|]; try reflexivity. apply IH.
Qed.
