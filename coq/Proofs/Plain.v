(** The general path on one record in terms of the record's fields (a literal delimiter, not
    character mode, no --json): each bound prints its fields joined by the (replacement)
    delimiter.  The output loop is followed on any table whose entries are the entries of the
    plain table at increasing positions [ks]: plain splitting is ks = 0, 1, .., n-1, and -g is
    ks = [kept_v] (Greedy.v). *)
From TucModel Require Import Base.Bytes Base.ListX Model.Bounds Model.BoundsParse Model.Scan Model.Opt
     Model.CutBytes Model.CutStr Spec.Fields Proofs.BoundsFacts Proofs.C06 Proofs.ScanSplit
     Proofs.C05 Proofs.C12 Proofs.Greedy Proofs.C01More.

Lemma replace_is_intercalate line rep : forall ms start,
  replace_matches_from line start ms rep
  = intercalate rep (pieces line (gaps_from start ms (length line))).
Proof.
  induction ms as [|m ms IH]; intros start; cbn [replace_matches_from gaps_from pieces map fst snd intercalate].
  - unfold slice. symmetry. apply firstn_all2. rewrite skipn_length. lia.
  - rewrite IH. destruct (gaps_from_cons (snd m) ms (length line)) as [e [gs ->]]. reflexivity.
Qed.

Lemma replace_lit_matches d line rep : d <> [] ->
  replace_matches line (lit_matches d line) rep = intercalate rep (split d line).
Proof.
  intros Hd. unfold replace_matches. rewrite replace_is_intercalate, (plain_table_pieces d line Hd). reflexivity.
Qed.

Definition loop_opts (o : opt) : Prop :=
  o_delim o <> [] /\ o_regex o = None /\ o_json o = false /\ btype_eqb (o_btype o) BChars = false.

(** -r on a joined run of fields rewrites exactly its separators: by uniqueness, the fields
    found in the joined text are the ones that were joined *)
Lemma maybe_replace_joined o fs : loop_opts o -> leftmost_fields (o_delim o) fs ->
  maybe_replace o (intercalate (o_delim o) fs) = Some (intercalate (out_rep o) fs).
Proof.
  intros [Hd [Hx [_ Hb]]] Hf. unfold maybe_replace, out_rep. rewrite Hx.
  destruct (o_btype o); try discriminate; (destruct (o_replace o) as [nd|]; [|reflexivity]);
    rewrite (replace_lit_matches _ _ _ Hd), (split_unique _ Hd fs _ (conj eq_refl Hf)); reflexivity.
Qed.

Lemma range_slice_occ line d : forall ms start ka kz a z,
  wf_ms start ms (length line) -> Forall (occurrence line d) ms -> ka <= kz ->
  nth_error (gaps_from start ms (length line)) ka = Some a ->
  nth_error (gaps_from start ms (length line)) kz = Some z ->
  slice line (fst a) (snd z)
  = intercalate d (firstn (kz + 1 - ka) (skipn ka (pieces line (gaps_from start ms (length line))))).
Proof.
  induction ms as [|m ms IH]; intros start ka kz a z Hwf Hocc Hk Ha Hz; cbn [gaps_from] in *.
  - destruct ka as [|[|]]; [|discriminate..]. destruct kz as [|[|]]; [|discriminate..].
    injection Ha as <-. injection Hz as <-. reflexivity.
  - destruct Hwf as [H1 [H2 H3]]. destruct (Forall_inv Hocc) as [_ Hm]. apply Forall_inv_tail in Hocc.
    destruct ka as [|ka]; destruct kz as [|kz]; try lia; cbn [nth_error] in Ha, Hz.
    + injection Ha as <-. injection Hz as <-. reflexivity.
    + (* from the first field on: the first field, the occurrence [m], and the rest by induction *)
      injection Ha as <-. cbn [fst].
      destruct (gaps_from_cons (snd m) ms (length line)) as [e0 [gs E]].
      assert (Ha0 : nth_error (gaps_from (snd m) ms (length line)) 0 = Some (snd m, e0)) by (rewrite E; reflexivity).
      pose proof (IH (snd m) 0 kz _ z H3 Hocc (Nat.le_0_l _) Ha0 Hz) as IH0.
      destruct (gaps_table_ok _ _ _ H3 0 kz _ z (Nat.le_0_l _) Ha0 Hz) as [Q1 Q2]. cbn [fst] in IH0, Q1.
      rewrite (slice_split line start (fst m) (snd z)), (slice_split line (fst m) (snd m) (snd z)) by lia.
      rewrite Hm, IH0. replace (S kz + 1 - 0) with (S (kz + 1 - 0)) by lia.
      cbn [pieces map skipn firstn fst snd]. rewrite intercalate_cons; [reflexivity|].
      rewrite E. replace (kz + 1 - 0) with (S kz) by lia. discriminate.
    + rewrite (IH (snd m) ka kz a z H3 Hocc ltac:(lia) Ha Hz).
      replace (S kz + 1 - S ka) with (kz + 1 - ka) by lia. reflexivity.
Qed.

Lemma plain_range_text o line ka kz a z :
  loop_opts o -> ka <= kz ->
  nth_error (gaps_from 0 (lit_matches (o_delim o) line) (length line)) ka = Some a ->
  nth_error (gaps_from 0 (lit_matches (o_delim o) line) (length line)) kz = Some z ->
  maybe_replace o (slice line (fst a) (snd z))
  = Some (intercalate (out_rep o) (firstn (kz + 1 - ka) (skipn ka (split (o_delim o) line)))).
Proof.
  intros Hlo Hk Ha Hz. pose proof Hlo as [Hd _].
  rewrite (range_slice_occ line _ _ 0 ka kz a z (lit_matches_wf _ line) (lit_matches_occ _ line Hd) Hk Ha Hz).
  rewrite (plain_table_pieces _ line Hd). apply maybe_replace_joined; [exact Hlo|].
  apply leftmost_range; [exact Hd | lia | | exact (proj2 (split_is_split _ line Hd))].
  enough (kz < length (split (o_delim o) line)) by lia.
  rewrite <- (plain_table_length _ line Hd). apply nth_error_Some. rewrite Hz. discriminate.
Qed.

Lemma out_loop_select o line ks G its :
  loop_opts o ->
  Forall2 (fun k g => nth_error (gaps_from 0 (lit_matches (o_delim o) line) (length line)) k = Some g) ks G ->
  increasing ks -> Forall item_nz its ->
  out_loop o line G its
  = match spec_items_g (split (o_delim o) line) ks (o_fallback o) (o_join o) (out_rep o) its with
    | Some x => ROk x
    | None => RErr
    end.
Proof.
  intros Hlo HT Hks Hnz. pose proof Hlo as [_ [_ [Hj _]]].
  assert (HtG : table_ok G (length line)).
  { intros i j a z Hij Ea Ez.
    destruct (Forall2_nth _ _ _ i a HT Ea) as [ka [Eka Hka]].
    destruct (Forall2_nth _ _ _ j z HT Ez) as [kz [Ekz Hkz]].
    exact (gaps_table_ok _ _ 0 (lit_matches_wf _ line) ka kz a z (Hks i j ka kz Hij Eka Ekz) Hka Hkz). }
  induction Hnz as [|x its Hx _ IH]; [reflexivity|]. destruct x as [b|f]; cbn [spec_items_g].
  - rewrite out_loop_cons_bound, IH, (Forall2_len _ _ _ HT). unfold out_sep.
    destruct (try_into_range b (length G)) as [[s e]|] eqn:E.
    + destruct (out_piece_resolved o line G b s e HtG Hx E) as [a [z [Ea [Ez [Hse ->]]]]].
      destruct (Forall2_nth _ _ _ s a HT Ea) as [ka [Eka Hka]].
      destruct (Forall2_nth _ _ _ (e - 1) z HT Ez) as [kz [Ekz Hkz]].
      rewrite Eka, Ekz, (plain_range_text o line ka kz a z Hlo (Hks s (e - 1) ka kz ltac:(lia) Eka Ekz) Hka Hkz).
      rewrite (emit_part_plain o _ Hj). destruct (spec_items_g _ _ _ _ _ its); reflexivity.
    + rewrite (out_piece_unresolved o line G b E).
      destruct (fallback_for b (o_fallback o)) as [fb|]; [rewrite (emit_part_plain o _ Hj)|reflexivity].
      destruct (spec_items_g _ _ _ _ _ its); reflexivity.
  - cbn [out_loop]. rewrite IH. destruct (spec_items_g _ _ _ _ _ its); reflexivity.
Qed.

Definition dfree (d : byte) (f : bytes) : Prop := Forall (fun x => N.eqb x d = false) f.

Lemma split_on_dfree d : forall l, Forall (dfree d) (split_on d l).
Proof.
  induction l as [|x l IH]; cbn [split_on]; [repeat constructor|].
  destruct (N.eqb x d) eqn:E; [constructor; [constructor | exact IH]|].
  destruct (split_on d l) as [|p ps]; [repeat constructor; exact E|].
  constructor; [constructor; [exact E | exact (Forall_inv IH)] | exact (Forall_inv_tail IH)].
Qed.

Lemma split_on_dfree_one d f : dfree d f -> split_on d f = [f].
Proof.
  induction f as [|x f IH]; intros H; [reflexivity|].
  cbn [split_on]. rewrite (Forall_inv H), (IH (Forall_inv_tail H)). reflexivity.
Qed.

Lemma split_on_app_dfree d f rest : dfree d f ->
  split_on d (f ++ d :: rest) = f :: split_on d rest.
Proof.
  induction f as [|x f IH]; intros H; cbn [app split_on].
  - rewrite N.eqb_refl. reflexivity.
  - rewrite (Forall_inv H), (IH (Forall_inv_tail H)). reflexivity.
Qed.

Lemma split_intercalate d : forall fs, fs <> [] -> Forall (dfree d) fs ->
  split_on d (intercalate [d] fs) = fs.
Proof.
  induction fs as [|f fs IH]; intros Hne Hf; [contradiction|]. destruct fs as [|g fs'].
  - cbn [intercalate]. apply split_on_dfree_one, (Forall_inv Hf).
  - rewrite intercalate_cons by discriminate.
    cbn [app]. rewrite split_on_app_dfree by exact (Forall_inv Hf). f_equal.
    apply IH; [discriminate | exact (Forall_inv_tail Hf)].
Qed.

Lemma intercalate_split_on d : forall l, intercalate [d] (split_on d l) = l.
Proof.
  induction l as [|x l IH]; [reflexivity|]. cbn [split_on].
  destruct (N.eqb_spec x d) as [->|Hne].
  - rewrite intercalate_cons by apply split_on_ne. rewrite IH. reflexivity.
  - destruct (split_on d l) as [|p ps] eqn:E; [exfalso; exact (split_on_ne _ _ E)|].
    destruct ps as [|q qs]; cbn [intercalate] in *; rewrite <- IH; reflexivity.
Qed.

Definition rep_of (o : opt) (d : byte) : bytes := match o_replace o with Some nd => nd | None => [d] end.

Fixpoint spec_items (fs : list bytes) (generic : option bytes) (join : bool) (rep : bytes)
         (its : list bof) : option bytes :=
  match its with
  | [] => Some []
  | Filler f :: r => option_map (app f) (spec_items fs generic join rep r)
  | Bound b :: r =>
      match (match try_into_range b (length fs) with
             | Some (s, e) => Some (intercalate rep (firstn (e - s) (skipn s fs)))
             | None => fallback_for b generic
             end) with
      | None => None
      | Some p =>
          option_map (fun t => p ++ (if join && negb (blast b) then rep else []) ++ t)
                     (spec_items fs generic join rep r)
      end
  end.

Definition plain_opts (o : opt) (d : byte) : Prop :=
  o_delim o = [d] /\ o_regex o = None /\ o_json o = false /\ btype_eqb (o_btype o) BChars = false
  /\ o_complement o = false /\ o_greedy o = false /\ o_compress o = false.

Lemma spec_items_seq fs generic join rep its : Forall item_nz its ->
  spec_items_g fs (seq 0 (length fs)) generic join rep its = spec_items fs generic join rep its.
Proof.
  induction 1 as [|x its Hx _ IH]; [reflexivity|].
  destruct x as [b|f]; cbn [spec_items_g spec_items]; rewrite IH; [|reflexivity].
  rewrite seq_length. destruct (try_into_range b (length fs)) as [[s e]|] eqn:E; [|reflexivity].
  destruct (try_into_range_some b _ s e Hx E) as [_ [_ [_ Hse]]].
  rewrite !nth_error_seq by lia. cbn [Nat.add]. replace (e - 1 + 1 - s) with (e - s) by lia. reflexivity.
Qed.

Lemma out_loop_plain o line its :
  loop_opts o -> Forall item_nz its ->
  out_loop o line (gaps_from 0 (lit_matches (o_delim o) line) (length line)) its
  = match spec_items (split (o_delim o) line) (o_fallback o) (o_join o) (out_rep o) its with
    | Some x => ROk x
    | None => RErr
    end.
Proof.
  intros Hlo Hnz. rewrite <- (spec_items_seq _ _ _ _ _ Hnz), <- (plain_table_length _ line (proj1 Hlo)).
  exact (out_loop_select o line _ _ its Hlo (select_all _) (seq_increasing 0 _) Hnz).
Qed.

(** one record under plain options (no trim, no -s): for each bound in the order written, its
    fields joined by the (replacement) delimiter, the (replacement) delimiter after every bound
    but the last only under -j/-r, then the EOL *)
Lemma plain_record o line :
  loop_opts o -> o_complement o = false -> o_greedy o = false -> o_compress o = false ->
  o_trim o = None -> o_only_delimited o = false -> line <> [] -> Forall item_nz (items (o_bounds o)) ->
  cut_str o line
  = Some (match spec_items (split (o_delim o) line) (o_fallback o) (o_join o) (out_rep o) (items (o_bounds o)) with
          | Some x => ROk (x ++ [o_eol o])
          | None => RErr
          end).
Proof.
  intros Hlo Hc Hg Hp Ht Hs Hl Hnz. pose proof Hlo as [_ [Hx [Hj Hb]]].
  rewrite cut_str_stages, (cut_guard_literal o Hx), (cut_trim_literal o line Hx), Ht.
  destruct line as [|c l]; [contradiction|].
  rewrite (cut_matches_literal o _ Hx), Hp, Hg. cbv zeta. cbn [andb].
  rewrite (cut_finish_fields o _ _ Hj Hb), (fields_of_matches_ne _ _ Hl). unfold finish_record.
  rewrite Hs, Hc, (out_loop_plain o _ _ Hlo Hnz). cbn [andb].
  destruct (spec_items _ _ _ _ _); reflexivity.
Qed.

Theorem general_plain_record o d line :
  plain_opts o d -> o_trim o = None -> o_only_delimited o = false ->
  line <> [] -> Forall item_nz (items (o_bounds o)) ->
  cut_str o line
  = Some (match spec_items (split_on d line) (o_fallback o) (o_join o) (rep_of o d) (items (o_bounds o)) with
          | Some x => ROk (x ++ [o_eol o])
          | None => RErr
          end).
Proof.
  intros [Hd [Hx [Hj [Hb [Hc [Hg Hp]]]]]] Ht Hs Hl Hnz.
  assert (Hlo : loop_opts o) by (unfold loop_opts; rewrite Hd; repeat split; (discriminate || assumption)).
  rewrite (plain_record o line Hlo Hc Hg Hp Ht Hs Hl Hnz). unfold out_rep, rep_of. rewrite Hd, split_byte.
  reflexivity.
Qed.
