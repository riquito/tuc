(** C11 for -M: the fixed-memory reader commutes with every injective renaming of the bytes. *)
From TucModel Require Import Base.Bytes Model.Bounds Model.Opt Model.CutBytes
     Model.Stream Proofs.C04 Proofs.C11 Proofs.C11Run.

Section Renaming.
  Variable f : byte -> byte.
  Hypothesis f_inj : forall a b, f a = f b -> a = b.
  Notation rn := (map f).
  Notation ri := (rename_item f).

  Definition rename_sopt (so : sopt) : sopt :=
    mkSO (f (s_delim so)) (option_map f (s_repl so)) (s_join so) (f (s_eol so))
         (option_map rn (s_fallback so)) (map ri (s_items so)) (s_lif so).

  Lemma sdelim_rename so : sdelim (rename_sopt so) = f (sdelim so).
  Proof. unfold sdelim. cbn [rename_sopt s_repl s_delim]. destruct (s_repl so); reflexivity. Qed.

  Lemma single_if_rename (c : bool) x : (if c then [f x] else []) = rn (if c then [x] else []).
  Proof. destruct c; reflexivity. Qed.

  Definition rename_printed (p : bytes * list bof) : bytes * list bof := let '(o, its) := p in (rn o, map ri its).

  Lemma print_bof_bound_rename so b r curr piece trunc c :
    print_bof (rename_sopt so) (map ri (Bound b :: r)) curr (rn piece) trunc c
    = rename_printed (print_bof so (Bound b :: r) curr piece trunc c).
  Proof.
    unfold print_bof. cbn [map rename_item]. rewrite (matches_rename f).
    destruct (matches b curr) as [[|]|]; try reflexivity.
    rewrite sdelim_rename, !single_if_rename. cbn [rename_bound br].
    destruct (c && side_eqb (br b) (SSome curr)); cbn [rename_printed]; rewrite !map_app; reflexivity.
  Qed.

  Lemma print_bof_rename so its curr piece trunc c :
    print_bof (rename_sopt so) (map ri its) curr (rn piece) trunc c
    = rename_printed (print_bof so its curr piece trunc c).
  Proof.
    destruct its as [|[b|t] its1]; [reflexivity | apply print_bof_bound_rename |].
    destruct its1 as [|[b|t'] r]; [reflexivity | | reflexivity].
    cbn [map rename_item]. rewrite !print_bof_filler by discriminate.
    change (Bound (rename_bound f b) :: map ri r) with (map ri (Bound b :: r)). rewrite print_bof_bound_rename.
    destruct (print_bof so (Bound b :: r) curr piece trunc c) as [o its']. cbn [rename_printed fst snd]. rewrite map_app. reflexivity.
  Qed.

  Lemma pff_rename so n : forall its,
    pff (rename_sopt so) (map ri its) n = option_map rn (pff so its n).
  Proof.
    induction its as [|[b|t] r IH]; cbn [map rename_item pff]; [reflexivity| |]; rewrite IH.
    - change (s_fallback (rename_sopt so)) with (option_map rn (s_fallback so)).
      rewrite sdelim_rename, (fallback_for_rename f). cbn [rename_bound bl br blast rename_sopt s_join].
      destruct ((match bl b with SCont => true | SSome l => (l <=? n)%Z end) && side_eqb (br b) SCont); [reflexivity|].
      destruct (fallback_for b (s_fallback so)) as [fb|]; cbn [option_map]; [|reflexivity].
      destruct (pff so r n); cbn [option_map]; [|reflexivity].
      rewrite single_if_rename, !map_app. reflexivity.
    - destruct (pff so r n); cbn [option_map]; rewrite ?map_app; reflexivity.
  Qed.

  Definition rename_scan_res (r : scan_res) : scan_res :=
    match r with
    | ChunkEnd out its curr trunc => ChunkEnd (rn out) (map ri its) curr trunc
    | RecordEnd out rest => RecordEnd (rn out) (rn rest)
    | SkipFrom out rest => SkipFrom (rn out) (rn rest)
    | ScanErr => ScanErr
    end.

  Lemma scan_chunk_rename so : forall chunk its curr trunc piece out,
    scan_chunk (rename_sopt so) (map ri its) curr trunc (rn piece) (rn chunk) (rn out)
    = rename_scan_res (scan_chunk so its curr trunc piece chunk out).
  Proof.
    induction chunk as [|x rest IH]; intros its curr trunc piece out; cbn [map scan_chunk].
    - destruct piece as [|y p]; [reflexivity|]. rewrite <- map_rev, print_bof_rename.
      destruct (print_bof so its curr (rev (y :: p)) trunc false) as [o its'].
      cbn [rename_printed rename_scan_res]. rewrite map_app. reflexivity.
    - cbn [rename_sopt s_eol s_delim s_lif]. rewrite !(eqb_f f f_inj).
      destruct (N.eqb x (s_eol so)); [|destruct (N.eqb x (s_delim so)); [|exact (IH its curr trunc (x :: piece) out)]].
      (* the field ends here, with the record or at a delimiter: what it prints, then what the record still owes *)
      all: rewrite <- map_rev, print_bof_rename; destruct (print_bof so its curr (rev piece) trunc true) as [o its'];
        cbn [rename_printed]; rewrite pff_rename.
      + replace (match rn piece with [] => true | _ :: _ => false end)
          with (match piece with [] => true | _ :: _ => false end) by (destruct piece; reflexivity).
        destruct ((curr =? 1)%Z && negb trunc && match piece with [] => true | _ => false end);
          [|destruct (pff so its' curr)]; cbn [option_map rename_scan_res]; rewrite ?map_app; reflexivity.
      + destruct (side_eqb (SSome curr) (s_lif so)).
        * destruct (pff so its' curr); cbn [option_map rename_scan_res]; rewrite ?map_app; reflexivity.
        * rewrite <- map_app. exact (IH its' (curr + 1)%Z false [] (out ++ o)).
  Qed.

  Lemma after_eol_rename eol : forall l, after_eol (f eol) (rn l) = option_map rn (after_eol eol l).
  Proof.
    induction l as [|x l IH]; [reflexivity|]. cbn [map after_eol]. rewrite (eqb_f f f_inj).
    destruct (N.eqb x eol); [reflexivity | exact IH].
  Qed.

  Lemma push_rest_rename rest cs : push_rest (rn rest) (map rn cs) = map rn (push_rest rest cs).
  Proof. destruct rest; reflexivity. Qed.

  Definition rename_mode (m : smode) : smode :=
    match m with Normal its curr trunc => Normal (map ri its) curr trunc | Skipping => Skipping end.

  Definition rename_rec_res (r : rec_res) : rec_res :=
    match r with
    | REof => REof
    | RLast out => RLast (rn out)
    | RRecord out cs => RRecord (rn out) (map rn cs)
    | RFail => RFail
    end.

  Lemma rec_chunks_eof_rename so mode started out :
    rec_chunks (rename_sopt so) (rename_mode mode) started [] (rn out)
    = rename_rec_res (rec_chunks so mode started [] out).
  Proof.
    cbn [rec_chunks]. destruct started; [|reflexivity].
    destruct mode as [its curr trunc|]; cbn [rename_mode rename_rec_res]; [|rewrite map_app; reflexivity].
    change (@nil N) with (rn []) at 1. rewrite print_bof_rename.
    destruct (print_bof so its curr [] trunc true) as [o its']. cbn [rename_printed]. rewrite pff_rename.
    destruct (pff so its' curr); cbn [option_map rename_rec_res]; rewrite ?map_app; reflexivity.
  Qed.

  Lemma rec_chunks_rename so : forall cs mode started out,
    rec_chunks (rename_sopt so) (rename_mode mode) started (map rn cs) (rn out)
    = rename_rec_res (rec_chunks so mode started cs out).
  Proof.
    induction cs as [|[|x c'] cs IH]; intros mode started out.
    (* an empty chunk stands for the end of input as well *)
    1,2: exact (rec_chunks_eof_rename so mode started out).
    cbn [map rec_chunks]. rewrite <- map_cons. cbn [rename_sopt s_eol].
    destruct mode as [its curr trunc|]; cbn [rename_mode].
    - change (@nil N) with (rn []) at 1. rewrite scan_chunk_rename.
      destruct (scan_chunk so its curr trunc [] (x :: c') out) as [o1 i1 c1 t1|o1 rest|o1 rest|]; cbn [rename_scan_res].
      + exact (IH (Normal i1 c1 t1) true o1).
      + rewrite push_rest_rename. reflexivity.
      + rewrite after_eol_rename. destruct (after_eol (s_eol so) rest) as [rest'|]; cbn [option_map rename_rec_res];
          [rewrite push_rest_rename, map_app; reflexivity | exact (IH Skipping true o1)].
      + reflexivity.
    - rewrite after_eol_rename. destruct (after_eol (s_eol so) (x :: c')) as [rest'|]; cbn [option_map rename_rec_res];
        [rewrite push_rest_rename, map_app; reflexivity | exact (IH Skipping true out)].
  Qed.

  Lemma run_stream_fuel_rename so : forall fuel cs acc,
    run_stream_fuel fuel (rename_sopt so) (map rn cs) (rn acc)
    = rename_outcome f (run_stream_fuel fuel so cs acc).
  Proof.
    induction fuel as [|fuel IH]; intros cs acc; [reflexivity|]. cbn [run_stream_fuel].
    change (Normal (s_items (rename_sopt so)) 1 false) with (rename_mode (Normal (s_items so) 1 false)).
    change (@nil N) with (rn []) at 1. rewrite rec_chunks_rename.
    destruct (rec_chunks so (Normal (s_items so) 1 false) false cs []) as [|o|o cs'|]; cbn [rename_rec_res rename_outcome];
      [reflexivity | rewrite map_app; reflexivity | rewrite <- map_app; apply IH | reflexivity].
  Qed.

  Lemma total_len_rename cs : total_len (map rn cs) = total_len cs.
  Proof. unfold total_len. induction cs as [|c cs IH]; [reflexivity|]. cbn [map fold_right]. rewrite map_length, IH. reflexivity. Qed.

  Theorem stream_rename so input :
    run_stream_whole (rename_sopt so) (rn input) = rename_outcome f (run_stream_whole so input).
  Proof.
    unfold run_stream_whole, run_stream.
    change (@nil (list N)) with (map rn []). rewrite push_rest_rename, total_len_rename.
    change (@nil N) with (rn []). apply run_stream_fuel_rename.
  Qed.

  Lemma strict_from_rename : forall bs prev, strict_from prev (map (rename_bound f) bs) = strict_from prev bs.
  Proof.
    induction bs as [|b bs IH]; intros prev; [reflexivity|]. cbn [map strict_from rename_bound bl br].
    destruct (side_eqb _ prev); [reflexivity | apply IH].
  Qed.

  Lemma forward_bounds_ok_rename l : forward_bounds_ok (map ri l) = forward_bounds_ok l.
  Proof.
    unfold forward_bounds_ok. rewrite (is_forward_only_rename f), (bounds_only_rename f), strict_from_rename.
    destruct l; reflexivity.
  Qed.

  Lemma last_bound_r_rename l : last_bound_r (map ri l) = last_bound_r l.
  Proof. unfold last_bound_r. rewrite (bounds_only_rename f), <- map_rev. destruct (rev (bounds_only l)); reflexivity. Qed.

  Theorem stream_opt_rename o : stream_opt (rename_opt f o) = option_map rename_sopt (stream_opt o).
  Proof.
    unfold stream_opt. cbn [rename_opt o_delim o_complement o_greedy o_compress o_json o_btype o_replace o_trim
                            o_regex o_only_delimited o_bounds o_join o_eol o_fallback rename_ublist items].
    destruct (o_delim o) as [|d [|d2 ds]]; try reflexivity.
    rewrite forward_bounds_ok_rename, last_bound_r_rename.
    destruct (o_replace o) as [[|r [|r2 rs]]|]; cbn [option_map map].
    all: match goal with |- (if ?c then _ else _) = _ => destruct c end; [reflexivity|].
    all: destruct (forward_bounds_ok (items (o_bounds o))); reflexivity.
  Qed.
End Renaming.
