(** C13, a whole record of the general path: if the record is cut successfully, every
    requested bound that does not resolve on it had a fallback (its own or the generic one),
    also under --complement; otherwise the record fails. *)
From TucModel Require Import Base.Bytes Base.ListX Model.Bounds Model.CutBytes Model.Opt Model.CutStr
     Spec.Resolve Proofs.BoundsFacts Proofs.C06 Proofs.C13 Proofs.C01More Proofs.C12.

Lemma out_loop_ok_fallbacks o line fields : forall bs body,
  out_loop o line fields bs = ROk body ->
  forall b, In (Bound b) bs -> try_into_range b (length fields) = None ->
            fallback_for b (o_fallback o) <> None.
Proof.
  induction bs as [|x bs IH]; intros body H b Hin Hnone; [contradiction|]. destruct x as [c|f].
  - rewrite out_loop_cons_bound in H. destruct (out_piece o line fields c) eqn:Ep; try discriminate.
    destruct (out_loop o line fields bs) as [r| | |]; try discriminate.
    destruct Hin as [E|Hin]; [|exact (IH r eq_refl b Hin Hnone)]. injection E as ->.
    rewrite (out_piece_unresolved o line fields b Hnone) in Ep. intros E. rewrite E in Ep. discriminate.
  - cbn [out_loop] in H. destruct (out_loop o line fields bs) as [r| | |]; try discriminate.
    destruct Hin as [E|Hin]; [discriminate | exact (IH r eq_refl b Hin Hnone)].
Qed.

(** the record was cut (not dropped by -s, not failed): no unresolvable bound was silent *)
Theorem finish_record_never_silent o line fields out :
  Forall item_nz (items (o_bounds o)) ->
  finish_record o line fields = ROk out ->
  (o_only_delimited o && Nat.eqb (length fields) 1 = false) ->
  forall b, In (Bound b) (items (o_bounds o)) -> ~ resolves b (length fields) ->
            fallback_for b (o_fallback o) <> None.
Proof.
  intros Hnz H Hs b Hin Hr. unfold finish_record in H. rewrite Hs in H.
  assert (Hb : bound_nz b) by exact (proj1 (Forall_forall _ _) Hnz (Bound b) Hin).
  pose proof (proj2 (try_into_range_none_iff b _ Hb) Hr) as Hnone.
  destruct (o_complement o).
  - destruct (complement_list (items (o_bounds o)) (length fields)) as [u|] eqn:Ec; [|discriminate].
    destruct (out_loop o line fields (items u)) as [body| | |] eqn:Eo; try discriminate.
    rewrite (complement_list_items _ _ _ Ec) in Eo.
    (* the bound is still in the complemented list, and in the result of mark_last up to the
       is_last flag, which try_into_range and the fallback ignore *)
    destruct (Forall2_In_l _ _ _ _ (mark_last_same _) (C13_complement_keeps _ _ b Hin Hb Hr))
      as [[b'|f] [Hin' S]]; [|contradiction].
    destruct S as [S1 [S2 S3]]. rewrite <- (try_into_range_ext b' b _ S1 S2) in Hnone.
    pose proof (out_loop_ok_fallbacks o line fields _ body Eo b' Hin' Hnone) as G.
    unfold fallback_for in *. rewrite S3 in G. exact G.
  - destruct (out_loop o line fields (items (o_bounds o))) as [body| | |] eqn:Eo; try discriminate.
    exact (out_loop_ok_fallbacks o line fields _ body Eo b Hin Hnone).
Qed.
