(** C18: what the bounds parser accepts is well-formed; text without escapes is rendered as it is. *)
From TucModel Require Import Base.Bytes Model.Bounds Model.BoundsParse
     Spec.BoundsGrammar Proofs.C18Iff Proofs.C18Render.
Local Open Scope Z_scope.

Definition side_i32 (s : side) : Prop :=
  match s with SSome v => i32_min <= v <= i32_max /\ v <> 0 | SCont => True end.

Lemma range_text_sound s l r : range_text s l r ->
  side_i32 l /\ side_i32 r
  /\ (forall lv rv, l = SSome lv -> r = SSome rv -> same_sign rv lv = true -> lv <= rv).
Proof.
  assert (G : forall t v, index_lit t v -> side_i32 (SSome v)) by (intros t v [_ H]; exact H).
  intros [t v Hi|a b lv rv Ha Hb Hord|a lv Ha|b rv Hb]; (split; [|split]); eauto; try exact I;
    intros lv' rv' E1 E2; try discriminate; injection E1 as <-; injection E2 as <-.
  - lia.
  - exact Hord.
Qed.

Theorem parse_bound_sound s b : parse_bound s = Some b ->
  side_i32 (bl b) /\ side_i32 (br b)
  /\ (forall l r, bl b = SSome l -> br b = SSome r -> same_sign r l = true -> l <= r).
Proof.
  intros H. apply parse_bound_iff in H. destruct H as [t l r Hr|t f l r Hr]; exact (range_text_sound _ _ _ Hr).
Qed.

Definition plain_byte (b : byte) : bool :=
  negb (N.eqb b ch_backslash) && negb (N.eqb b ch_lbrace) && negb (N.eqb b ch_rbrace).

Theorem render_plain s : forallb plain_byte s = true -> render_filler s = s.
Proof.
  intros H. assert (F : Forall (fun x => plain_byte x = true) s) by (apply Forall_forall; apply forallb_forall; exact H).
  assert (G : forall c, (c = ch_backslash \/ c = ch_lbrace \/ c = ch_rbrace) -> Forall (fun x => N.eqb x c = false) s).
  { intros c Hc. eapply Forall_impl; [|exact F]. intros x Hx. unfold plain_byte in Hx.
    apply andb_true_iff in Hx. destruct Hx as [Hx H3]. apply andb_true_iff in Hx. destruct Hx as [H1 H2].
    apply negb_true_iff in H1, H2, H3. destruct Hc as [->|[->| ->]]; assumption. }
  unfold render_filler. rewrite (replace2_plain ch_lbrace ch_lbrace) by (apply G; tauto).
  rewrite (replace2_plain ch_rbrace ch_rbrace) by (apply G; tauto).
  rewrite (replace2_plain ch_backslash ch_n) by (apply G; tauto).
  apply replace2_plain, G. tauto.
Qed.
