(** C03: [stream_opt] read backwards - what an option set that -M accepts looks like, so that
    the line-at-a-time path it is compared with is well defined - and [print_bof] on one whole
    field. *)
From TucModel Require Import Base.Bytes Model.Bounds Model.Opt
     Model.CutStr Model.FastLane Model.Stream Proofs.C04 Proofs.C01More.
Local Open Scope Z_scope.

(** StreamOpt::try_from read backwards: what an accepted option set is, and how the
    stream options are taken from it *)
Lemma stream_opt_view o so :
  stream_opt o = Some so ->
  (o_delim o = [s_delim so] /\ o_regex o = None /\ o_json o = false /\ o_btype o = BFields
   /\ o_complement o = false /\ o_greedy o = false /\ o_compress o = false)
  /\ o_replace o = option_map (fun r => [r]) (s_repl so)
  /\ o_trim o = None /\ o_only_delimited o = false
  /\ forward_bounds_ok (items (o_bounds o)) = true
  /\ s_join so = o_join o /\ s_eol so = o_eol o /\ s_fallback so = o_fallback o
  /\ s_items so = items (o_bounds o) /\ s_lif so = last_bound_r (items (o_bounds o)).
Proof.
  unfold stream_opt. destruct (o_delim o) as [|d [|]]; try discriminate.
  destruct (o_complement o); [discriminate|]. destruct (o_greedy o); [discriminate|].
  destruct (o_compress o); [discriminate|]. destruct (o_json o); [discriminate|].
  destruct (o_btype o); try discriminate. cbn [btype_eqb negb orb].
  destruct (o_replace o) as [[|r [|]]|]; try discriminate;
    (destruct (o_trim o); [discriminate|]); (destruct (o_regex o); [discriminate|]);
    (destruct (o_only_delimited o); [discriminate|]); cbn [orb];
    (destruct (forward_bounds_ok (items (o_bounds o))); [|discriminate]);
    intros [= <-]; repeat split.
Qed.

(** every option set -M accepts is served, without -M, by the fast lane - or by the general
    path when a (one-byte) replacement is given *)
Theorem stream_reference_path o so :
  stream_opt o = Some so ->
  (o_replace o = None /\ fast_eligible o = true)
  \/ (exists r, o_replace o = Some [r] /\ fast_eligible o = false).
Proof.
  intros H. destruct (stream_opt_view o so H) as [[Hd [Hx [Hj [Hb [Hc [Hg Hp]]]]]] [Hr _]].
  unfold fast_eligible. rewrite Hd, Hx, Hj, Hb, Hc, Hg, Hp, Hr.
  destruct (s_repl so) as [r|]; [right; exists r | left]; split; reflexivity.
Qed.

Theorem general_empty_record o :
  o_only_delimited o = false -> o_trim o = None ->
  (o_regex o = None \/ o_replace o <> None \/ (o_compress o = false /\ o_join o = false)) ->
  cut_str o [] = Some (ROk [o_eol o]).
Proof.
  intros Hs Ht Hr. rewrite cut_str_stages, (cut_trim_none o [] Ht), Hs.
  replace (cut_guard o) with false; [reflexivity|]. unfold cut_guard, is_re.
  destruct (o_regex o) as [x|]; destruct (o_replace o) as [nd|]; cbn [andb orb]; try reflexivity.
  destruct Hr as [H|[H|[H1 H2]]]; [discriminate | contradiction | rewrite H1, H2; reflexivity].
Qed.

(** a field that belongs to the pending bound is printed whole, preceded by the delimiter
    inside a range and followed by the join delimiter when it completes a non-last bound;
    a field outside the pending bound prints nothing *)
Theorem stream_field_rule so b its curr piece :
  matches b curr = Some true ->
  print_bof so (Bound b :: its) curr piece false true =
  ((if (1 <? curr) && negb (side_eqb (bl b) (SSome curr)) then [sdelim so] else [])
     ++ piece
     ++ (if side_eqb (br b) (SSome curr) then (if s_join so && negb (blast b) then [sdelim so] else []) else []),
   if side_eqb (br b) (SSome curr) then its else Bound b :: its).
Proof.
  intros Hm. rewrite print_bof_bound, Hm. cbn [negb andb].
  destruct (side_eqb (br b) (SSome curr)); [|rewrite app_nil_r]; reflexivity.
Qed.

Theorem stream_field_outside so b its curr piece :
  matches b curr = Some false ->
  print_bof so (Bound b :: its) curr piece false true = ([], Bound b :: its).
Proof. intros Hm. rewrite print_bof_bound, Hm. reflexivity. Qed.
