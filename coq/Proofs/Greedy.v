(** C01 under -g, at the level of the fields table: the greedy table is the plain table at the
    positions [kept_v] (the first field, the non-empty ones, the last); and the value of a record
    whose counted fields sit at given positions among all of its fields ([spec_items_g]): the
    printed range is the fields from the first selected one to the last, runs of delimiters
    between them printed whole. *)
From TucModel Require Import Base.Bytes Base.ListX Model.Bounds Model.Scan Model.Opt Model.CutBytes
     Spec.Fields Proofs.ScanSplit Proofs.C12.

Fixpoint drop_empty_inner_r (gs : list mtch) : list mtch :=
  match gs with
  | [] => []
  | [g] => [g]
  | g :: rest => if Nat.eqb (fst g) (snd g) then drop_empty_inner_r rest else g :: drop_empty_inner_r rest
  end.

Lemma deir_cons g q rest :
  drop_empty_inner_r (g :: q :: rest)
  = if Nat.eqb (fst g) (snd g) then drop_empty_inner_r (q :: rest) else g :: drop_empty_inner_r (q :: rest).
Proof. reflexivity. Qed.

(** [cur] is the match that the merge is still extending and [start] the end of the one before
    it: the gap up to [cur] opens the table, and the gaps after it are those of the unmerged
    matches without the inner ones of zero width. *)
Lemma merge_from_gaps len : forall ms cur start,
  fst cur <= snd cur -> wf_ms (snd cur) ms len ->
  gaps_from start (merge_adjacent_from cur ms) len
  = (start, fst cur) :: drop_empty_inner_r (gaps_from (snd cur) ms len).
Proof.
  induction ms as [|m ms IH]; intros cur start Hc Hwf; [reflexivity|].
  cbn [merge_adjacent_from]. destruct Hwf as [H1 [H2 H3]].
  (* a table follows the gap before [m], so that gap is an inner one *)
  destruct (gaps_from_cons (snd m) ms len) as [e0 [gs Eg]].
  cbn [gaps_from]. rewrite Eg, deir_cons, <- Eg. cbn [fst snd].
  destruct (Nat.eqb_spec (fst m) (snd cur)) as [E|NE].
  - rewrite (IH (fst cur, snd m) start); [|cbn; lia | exact H3]. cbn [fst snd].
    destruct (Nat.eqb_spec (snd cur) (fst m)); [reflexivity | lia].
  - cbn [gaps_from]. rewrite (IH m (snd cur) H2 H3).
    destruct (Nat.eqb_spec (snd cur) (fst m)); [lia | reflexivity].
Qed.

Fixpoint kept_inner (base : nat) (gs : list mtch) : list nat :=
  match gs with
  | [] => []
  | [g] => [base]
  | g :: rest => (if Nat.eqb (fst g) (snd g) then [] else [base]) ++ kept_inner (S base) rest
  end.

Lemma kept_inner_cons base g q rest :
  kept_inner base (g :: q :: rest)
  = (if Nat.eqb (fst g) (snd g) then [] else [base]) ++ kept_inner (S base) (q :: rest).
Proof. reflexivity. Qed.

Lemma deir_is_select : forall gs base (tbl : list mtch),
  (forall i g, nth_error gs i = Some g -> nth_error tbl (base + i) = Some g) ->
  Forall2 (fun k g => nth_error tbl k = Some g) (kept_inner base gs) (drop_empty_inner_r gs).
Proof.
  induction gs as [|g gs IH]; intros base tbl H; [constructor|].
  pose proof (H 0 g eq_refl) as H0. rewrite Nat.add_0_r in H0.
  destruct gs as [|q rest]; [repeat constructor; exact H0|].
  rewrite deir_cons, kept_inner_cons.
  assert (IH' : Forall2 (fun k g0 => nth_error tbl k = Some g0)
                        (kept_inner (S base) (q :: rest)) (drop_empty_inner_r (q :: rest))).
  { apply IH. intros i g0 Hi. rewrite Nat.add_succ_comm. exact (H (S i) g0 Hi). }
  destruct (Nat.eqb (fst g) (snd g)); cbn [app]; [exact IH' | constructor; [exact H0 | exact IH']].
Qed.

Lemma kept_inner_range : forall gs base, Forall (fun k => base <= k < base + length gs) (kept_inner base gs).
Proof.
  induction gs as [|g gs IH]; intros base; [constructor|]. destruct gs as [|q rest].
  - cbn. constructor; [lia | constructor].
  - rewrite kept_inner_cons. apply Forall_app. split.
    + destruct (Nat.eqb (fst g) (snd g)); constructor; [cbn; lia | constructor].
    + eapply Forall_impl; [|apply IH]. cbn [length]. intros k Hk. lia.
Qed.

Lemma kept_inner_sorted : forall gs base i j a b,
  i < j -> nth_error (kept_inner base gs) i = Some a -> nth_error (kept_inner base gs) j = Some b -> a < b.
Proof.
  induction gs as [|g gs IH]; intros base i j a b Hij Ha Hb; [destruct i; discriminate|].
  destruct gs as [|q rest].
  - cbn in Ha, Hb. destruct j; [lia|]. destruct j; discriminate.
  - rewrite kept_inner_cons in Ha, Hb. destruct (Nat.eqb (fst g) (snd g)); cbn [app] in Ha, Hb.
    + exact (IH (S base) i j a b Hij Ha Hb).
    + destruct i as [|i'].
      * cbn in Ha. injection Ha as <-. destruct j as [|j']; [lia|]. cbn [nth_error] in Hb.
        pose proof (kept_inner_range (q :: rest) (S base)) as M. rewrite Forall_forall in M.
        specialize (M b (nth_error_In _ _ Hb)). lia.
      * destruct j as [|j']; [lia|]. cbn [nth_error] in Ha, Hb. exact (IH (S base) i' j' a b ltac:(lia) Ha Hb).
Qed.

Fixpoint kept_inner_v (base : nat) (ps : list bytes) : list nat :=
  match ps with
  | [] => []
  | [p] => [base]
  | p :: rest => (match p with [] => [] | _ => [base] end) ++ kept_inner_v (S base) rest
  end.

Definition kept_v (ps : list bytes) : list nat :=
  match ps with [] => [] | p :: rest => 0 :: kept_inner_v 1 rest end.

Lemma kept_inner_v_cons base p q rest :
  kept_inner_v base (p :: q :: rest)
  = (match p with [] => [] | _ => [base] end) ++ kept_inner_v (S base) (q :: rest).
Proof. reflexivity. Qed.

Lemma kept_inner_values : forall gs ps, Forall2 (fun g p => fst g = snd g <-> p = []) gs ps ->
  forall base, kept_inner base gs = kept_inner_v base ps.
Proof.
  induction 1 as [|g p gs ps Hgp H IH]; intros base; [reflexivity|].
  destruct H as [|g' p' gs' ps' _ _]; [reflexivity|].
  rewrite kept_inner_cons, kept_inner_v_cons, IH. f_equal.
  destruct (Nat.eqb_spec (fst g) (snd g)) as [E|N]; destruct p as [|y p]; try reflexivity.
  - apply Hgp in E. discriminate.
  - destruct (N (proj2 Hgp eq_refl)).
Qed.

Lemma gaps_pieces_empty line len : forall ms start, wf_ms start ms len -> len <= length line ->
  Forall2 (fun g p => fst g = snd g <-> p = []) (gaps_from start ms len) (pieces line (gaps_from start ms len)).
Proof.
  induction ms as [|m ms IH]; intros start H Hlen; cbn [gaps_from wf_ms pieces map fst snd] in *.
  - constructor; [|constructor]. symmetry. apply slice_empty_iff; cbn [fst snd]; lia.
  - destruct H as [A [B C]]. pose proof (wf_ms_le _ _ _ C). constructor; [|exact (IH _ C Hlen)].
    symmetry. apply slice_empty_iff; cbn [fst snd]; lia.
Qed.

Lemma greedy_table d line : d <> [] -> line <> [] ->
  let P := gaps_from 0 (lit_matches d line) (length line) in
  let G := gaps_from 0 (merge_adjacent (lit_matches d line)) (length line) in
  Forall2 (fun k g => nth_error P k = Some g) (kept_v (split d line)) G.
Proof.
  intros Hd Hl P G. rewrite <- (scan_ranges_split d line Hd Hl), (fields_of_matches_ne _ line Hl).
  subst P G. pose proof (lit_matches_wf d line) as Hwf. destruct (lit_matches d line) as [|m ms].
  - repeat constructor.
  - destruct Hwf as [H1 [H2 H3]]. cbn [merge_adjacent]. rewrite (merge_from_gaps _ ms m 0 H2 H3).
    cbn [gaps_from pieces map kept_v]. constructor; [reflexivity|].
    fold (pieces line (gaps_from (snd m) ms (length line))).
    rewrite <- (kept_inner_values _ _ (gaps_pieces_empty line _ ms (snd m) H3 (Nat.le_refl _)) 1).
    apply deir_is_select. intros i g Hi. exact Hi.
Qed.

(** [kept_v] is [kept_inner] on any gaps that are empty where the fields are; position 0 is
    always kept, so a non-empty gap [(0, 1)] stands for the first field *)
Lemma kept_v_offsets ps :
  kept_v ps = kept_inner 0 (match ps with [] => [] | _ :: rest => (0, 1) :: map (fun p => (0, length p)) rest end).
Proof.
  destruct ps as [|p rest]; [reflexivity|]. cbn [kept_v].
  assert (H : Forall2 (fun g p => fst g = snd g <-> p = []) (map (fun p => (0, length p)) rest) rest).
  { induction rest as [|x l IH]; constructor; [|exact IH]. cbn [fst snd]. split; [|intros ->; reflexivity].
    intros E. apply length_zero_iff_nil. symmetry. exact E. }
  rewrite <- (kept_inner_values _ _ H 1). destruct rest; reflexivity.
Qed.

Lemma kept_v_increasing ps : increasing (kept_v ps).
Proof.
  intros i j a b Hij Ha Hb. destruct (Nat.eq_dec i j) as [->|N]; [rewrite Ha in Hb; injection Hb as <-; lia|].
  rewrite kept_v_offsets in Ha, Hb. pose proof (kept_inner_sorted _ _ i j a b ltac:(lia) Ha Hb). lia.
Qed.

(** the value-level meaning of one record when the counted fields are those at the positions
    [ks] of [ps]: a bound that resolves to the counted fields s+1..e prints every field of the
    record from the first of them to the last of them *)
Fixpoint spec_items_g (ps : list bytes) (ks : list nat) (generic : option bytes) (join : bool) (rep : bytes)
         (its : list bof) : option bytes :=
  match its with
  | [] => Some []
  | Filler f :: r => option_map (app f) (spec_items_g ps ks generic join rep r)
  | Bound b :: r =>
      match (match try_into_range b (length ks) with
             | Some (s, e) =>
                 match nth_error ks s, nth_error ks (e - 1) with
                 | Some a, Some z => Some (intercalate rep (firstn (z + 1 - a) (skipn a ps)))
                 | _, _ => None
                 end
             | None => fallback_for b generic
             end) with
      | None => None
      | Some p =>
          option_map (fun t => p ++ (if join && negb (blast b) then rep else []) ++ t)
                     (spec_items_g ps ks generic join rep r)
      end
  end.

Definition greedy_opts (o : opt) : Prop :=
  o_delim o <> [] /\ o_regex o = None /\ o_json o = false /\ o_btype o = BFields /\ o_greedy o = true.
