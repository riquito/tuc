(** C12, whole runs: for every argument vector and every input the model of tuc ends with
    status 0 or 1, with the help or version text, or outside what the model describes
    ([MUnknown]) - never in [Panic] (an index out of range, an unwrap on None) and never in
    [Hang] (fuel exhausted). *)
From TucModel Require Import Base.Bytes Model.Bounds Model.BoundsParse Model.Utf8
     Model.Regex Model.Opt Model.CutBytes Model.CutStr Model.Scratch Model.FastLane Model.CutLines Model.Stream
     Model.Args Model.Main Proofs.BoundsFacts Proofs.ParseFacts Proofs.C06 Proofs.C01More Proofs.C02
     Proofs.C03 Proofs.C04 Proofs.C04Parse Proofs.C07 Proofs.C12 Proofs.C16 Proofs.C03Full.

Lemma table_ok_middle pre mid post len : table_ok (pre ++ mid ++ post) len -> table_ok mid len.
Proof.
  intros H i j a z Hij Ha Hz.
  assert (G : forall k x, nth_error mid k = Some x -> nth_error (pre ++ mid ++ post) (length pre + k) = Some x).
  { intros k x Hk. rewrite nth_error_app2 by lia. replace (length pre + k - length pre) with k by lia.
    rewrite nth_error_app1; [exact Hk|]. apply nth_error_Some. congruence. }
  apply (H (length pre + i) (length pre + j)); [lia | apply G, Ha | apply G, Hz].
Qed.

(** character mode drops the two empty pieces at the ends of the table (the [pop()] and
    [drain(..1)] of the source): what is left is a middle part of it *)
Lemma drop_outer_table_ok fields len : table_ok fields len -> table_ok (drop_outer fields) len.
Proof.
  unfold drop_outer. destruct (2 <? length fields) eqn:E; [|trivial].
  destruct fields as [|x rest]; [discriminate|]. destruct rest as [|y rest']; [discriminate|].
  intros H. apply (table_ok_middle [x] _ [last (y :: rest') x]).
  rewrite <- app_removelast_last by discriminate. exact H.
Qed.

Definition rx_consistent (o : opt) : Prop := o_regex o = Some RxChars -> o_btype o = BChars.

Lemma maybe_replace_some o t : rx_consistent o -> maybe_replace o t <> None.
Proof.
  intros Hc. unfold maybe_replace. destruct (o_replace o); [|destruct (o_btype o); discriminate].
  (* only the character splitter can fail to split, and it is not used outside character mode *)
  destruct (o_regex o) as [[|r]|] eqn:Ex.
  - rewrite (Hc Ex). discriminate.
  - destruct (o_compress o), (o_btype o); discriminate.
  - destruct (o_btype o); discriminate.
Qed.

Definition rres_ok (r : rres) : Prop := match r with RPanic | RHang => False | _ => True end.

Lemma out_loop_total o line fields bs :
  rx_consistent o -> table_ok fields (length line) -> Forall item_nz bs ->
  rres_ok (out_loop o line fields bs).
Proof.
  intros Hc Ht Hnz. apply out_loop_pieces; [intros x; exact I|].
  eapply Forall_impl; [|exact Hnz]. intros [b|f] Hx; [|exact I].
  destruct (out_piece_cases o line fields b Ht Hx) as [[p ->]|[->|[_ [t Hm]]]]; try exact I.
  destruct (maybe_replace_some o t Hc Hm).
Qed.

Definition bounds_ok (o : opt) : Prop :=
  exists l0, from_vec l0 = Some (o_bounds o) /\ Forall item_nz l0.

Lemma bounds_ok_items o : bounds_ok o ->
  Forall item_nz (items (o_bounds o)) /\ bounds_only (items (o_bounds o)) <> [].
Proof.
  intros [l0 [Hf Hnz]]. split; [exact (from_vec_nz _ _ Hnz Hf)|].
  destruct (from_vec_items _ _ Hf) as [-> Hne]. intros E. apply Hne, length_zero_iff_nil.
  rewrite <- bounds_only_mark_last_len, E. reflexivity.
Qed.

Lemma boundaries_wf : forall cs start pos len, start <= pos -> pos + total cs <= len ->
  wf_ms start (map (fun p => (p, p)) (boundaries_from pos cs)) len.
Proof.
  induction cs as [|c cs IH]; intros start pos len Hs H; cbn [boundaries_from map wf_ms fst snd]; [lia|].
  rewrite total_cons in H. split; [exact Hs|]. split; [lia|]. apply IH; lia.
Qed.

Lemma char_matches_wf line ms : char_matches line = Some ms -> wf_ms 0 ms (length line).
Proof.
  unfold char_matches. destruct (utf8_chars line) as [cs|] eqn:E; [|discriminate].
  intros H; injection H as <-. destruct (utf8_chars_fuel_concat _ _ _ E) as [Hc _].
  apply boundaries_wf; [lia|]. unfold total. rewrite Hc. lia.
Qed.

Lemma cut_matches_wf o line1 line ms : cut_matches o line1 = Some (line, ms) -> wf_ms 0 ms (length line).
Proof.
  unfold cut_matches. destruct (cut_compress o line1) as [[[line' delim] use_re]|]; [|discriminate].
  destruct (cut_split o line' delim use_re) as [ms'|] eqn:E; [|discriminate].
  intros H; injection H as <- <-. revert E. unfold cut_split. destruct use_re.
  - destruct (o_regex o) as [[|r]|].
    + destruct (o_greedy o); apply char_matches_wf.
    + destruct (o_greedy o); intros H; injection H as <-; apply re_matches_wf.
    + intros H; injection H as <-. cbn. lia.
  - destruct (o_greedy o); intros H; injection H as <-; [apply merge_adjacent_wf|]; apply lit_matches_wf.
Qed.

Lemma cut_tail_total o line fields :
  Forall item_nz (items (o_bounds o)) -> bounds_only (items (o_bounds o)) <> [] -> rx_consistent o ->
  table_ok fields (length line) -> match cut_tail o line fields with Some r => rres_ok r | None => True end.
Proof.
  intros Hnz Hne Hc Ht. unfold cut_tail.
  destruct (o_only_delimited o && _); [exact I|].
  (* the bounds after the optional complement ... *)
  match goal with |- match match ?B1 with _ => _ end with _ => _ end =>
    assert (H1 : forall bs1, B1 = Some bs1 -> Forall item_nz bs1 /\ bounds_only bs1 <> []);
      [|destruct B1 as [bs1|]; [destruct (H1 bs1 eq_refl) as [Hnz1 Hne1] | exact I]] end.
  { intros bs1. destruct (o_complement o); [|intros H; injection H as <-; split; assumption].
    destruct (complement_list _ _) as [u|] eqn:E; [|discriminate].
    intros H; injection H as <-. exact (complement_list_ok _ _ _ Hnz E). }
  (* ... and after the optional range expansion, which cannot fail on them *)
  match goal with |- match match ?B2 with _ => _ end with _ => _ end =>
    assert (H2 : exists bs2, B2 = Some bs2 /\ Forall item_nz bs2) end.
  { destruct (_ && needs_unpack bs1); [|eauto].
    destruct (unpack_list_ok bs1 (length fields) Hnz1 Hne1) as [u [-> Hu]]. eauto. }
  destruct H2 as [bs2 [-> Hnz2]].
  pose proof (out_loop_total o line fields bs2 Hc Ht Hnz2) as Hout.
  destruct (out_loop o line fields bs2); exact Hout || exact I.
Qed.

Theorem cut_str_total o line0 :
  bounds_ok o -> rx_consistent o ->
  match cut_str o line0 with Some r => rres_ok r | None => True end.
Proof.
  intros Hb Hc. destruct (bounds_ok_items o Hb) as [Hnz Hne].
  rewrite cut_str_stages. destruct (cut_guard o); [exact I|].
  destruct (cut_trim o line0) as [[|c0 line1]|]; [exact I | | exact I].
  destruct (cut_matches o (c0 :: line1)) as [[line ms]|] eqn:Em; [|exact I].
  apply (cut_tail_total o line _ Hnz Hne Hc). unfold cut_fields.
  destruct (btype_eqb (o_btype o) BChars); [apply drop_outer_table_ok|]; apply fields_table_ok, (cut_matches_wf o _ _ _ Em).
Qed.

Definition outcome_ok (x : outcome) : Prop := match x with Panic | Hang => False | _ => True end.
Definition mres_ok (m : mres) : Prop := match m with MOut x => outcome_ok x | _ => True end.

Lemma run_records_total cut rs : forall acc,
  (forall r, match cut r with Some x => rres_ok x | None => True end) ->
  mres_ok (lift (run_records cut rs acc)).
Proof.
  induction rs as [|r rs IH]; intros acc H; cbn [run_records]; [exact I|].
  specialize (H r) as Hr. destruct (cut r) as [[o| | |]|]; try exact I; try contradiction.
  apply IH, H.
Qed.

Theorem general_path_total o input : bounds_ok o -> rx_consistent o ->
  mres_ok (lift (read_and_cut_str o input)).
Proof. intros Hb Hc. exact (run_records_total (cut_str o) _ [] (fun r => cut_str_total o r Hb Hc)). Qed.

(** the fast lane computes what the general path computes (C02) *)
Theorem fast_lane_total o input : bounds_ok o -> rx_consistent o -> fast_eligible o = true ->
  mres_ok (lift (read_and_cut_fast o input)).
Proof.
  intros Hb Hc He. apply (run_records_total (fun r => Some (cut_fast o r))). intros r.
  pose proof (cut_str_total o r Hb Hc) as Hr. destruct Hb as [l0 [Hf Hnz]].
  rewrite (C02_record o l0 r He Hf Hnz) in Hr. exact Hr.
Qed.

(** byte mode and the forward reader of line mode index nothing and run on no fuel: they need
    no hypothesis *)
Theorem byte_mode_total l g data : outcome_ok (cut_bytes l g data).
Proof. unfold cut_bytes. destruct data; [exact I|]. destruct (cut_bytes_items _ _ _); exact I. Qed.

Lemma fwd_lines_total o : forall ls bs add idx acc, outcome_ok (fwd_lines o ls bs add idx acc).
Proof.
  induction ls as [|line ls IH]; intros bs add idx acc; cbn [fwd_lines].
  - destruct (fwd_finish o bs add); exact I.
  - destruct (negb (utf8_valid line)); [exact I|].
    destruct (fwd_bounds o bs add (idx + 1)%Z line) as [[out rest] a].
    destruct rest; [exact I | apply IH].
Qed.

Theorem line_mode_total o input : bounds_ok o -> rx_consistent o ->
  mres_ok (lift (read_and_cut_lines o input)).
Proof.
  intros Hb Hc. unfold read_and_cut_lines. destruct (can_be_streamed o).
  - apply fwd_lines_total.
  - unfold cut_lines_buffered. destruct (negb (utf8_valid input)); [exact I|].
    pose proof (cut_str_total o (strip_one_suffix (o_eol o) input) Hb Hc) as H.
    destruct (cut_str o (strip_one_suffix (o_eol o) input)) as [[x| | |]|]; try exact I; contradiction.
Qed.

(** -M: the run is the per-record function over the records, and a record read to its EOL
    yields output or fails; the fuel (input length + 1) is never exhausted *)
Theorem fixed_memory_total so input : no_adjacent_fillers (s_items so) ->
  outcome_ok (run_stream_whole so input).
Proof.
  intros Hn. pose proof (run_records_total (fun r => Some (stream_record so r)) (records (s_eol so) input) []) as H.
  rewrite <- (run_stream_records so _ input Hn) in H by (apply Forall_forall; reflexivity).
  apply H. intros r. unfold stream_record. destruct (record_out so _); exact I.
Qed.

Definition parsed_opt (o : opt) : Prop :=
  bounds_ok o /\ rx_consistent o /\ no_adjacent_fillers (items (o_bounds o)).

(** the parser is written in continuation-passing style: [pres_ok Q p] says that [Q] holds of
    the option set if [p] is one, and goes through each step of the parse *)
Definition pres_ok (Q : opt -> Prop) (p : pres) : Prop := match p with POpt o => Q o | _ => True end.

Lemma with_flag_ok Q s l a k : (forall b a', pres_ok Q (k b a')) -> pres_ok Q (with_flag s l a k).
Proof. intros H. apply H. Qed.

Lemma with_value_ok {A} Q (r : vres A) k : (forall v a', pres_ok Q (k v a')) -> pres_ok Q (with_value r k).
Proof. intros H. destruct r; try exact I; apply H. Qed.

Lemma with_opt_value_ok {A} (P : A -> Prop) (f : bytes -> option A) (Hf : forall t x, f t = Some x -> P x) Q s l a k :
  (forall v a', match v with Some x => P x | None => True end -> pres_ok Q (k v a')) ->
  pres_ok Q (with_value (opt_value s l f a) k).
Proof.
  intros H. unfold with_value, opt_value. destruct (find_value s l a) as [| |t two i]; [apply H; exact I | exact I|].
  destruct (f t) as [y|] eqn:E; [|exact I]. apply H, (Hf t y E).
Qed.

Lemma stop_or_ok Q (c : bool) stop p : pres_ok Q stop -> pres_ok Q p -> pres_ok Q (if c then stop else p).
Proof. destruct c; trivial. Qed.

Lemma no_rest_ok Q (a : args) p : pres_ok Q p -> pres_ok Q (match a with [] => p | _ :: _ => PExit1 end).
Proof. destruct a; [trivial | exact (fun _ => I)]. Qed.

Definition ublist_ok (u : ublist) : Prop :=
  (exists l0, from_vec l0 = Some u /\ Forall item_nz l0) /\ no_adjacent_fillers (items u).

Lemma default_bounds_ok : ublist_ok default_bounds.
Proof.
  split; [|cbn; exact I].
  exists [Bound (mkB (SSome 1) SCont false None)]. split; [reflexivity|].
  constructor; [|constructor]. split; cbn; [discriminate | exact I].
Qed.

Lemma parsed_ublist_ok t u : parse_ublist t = Some u -> ublist_ok u.
Proof. intros H. split; [exact (parse_ublist_from_vec t u H) | exact (parse_ublist_naf t u H)]. Qed.

Lemma pick_mode_ok mf mb mc ml :
  match mf with Some x => ublist_ok x | None => True end -> match mb with Some x => ublist_ok x | None => True end ->
  match mc with Some x => ublist_ok x | None => True end -> match ml with Some x => ublist_ok x | None => True end ->
  ublist_ok (snd (pick_mode mf mb mc ml)).
Proof.
  intros Hf Hb Hc Hl. unfold pick_mode.
  destruct mf; [exact Hf|]. destruct mb; [exact Hb|]. destruct mc; [exact Hc|]. destruct ml; [exact Hl|].
  apply default_bounds_ok.
Qed.

Lemma parse_regex_value_chars c a l : parse_regex_value c a = VPresent (Some RxChars) l -> c = true.
Proof.
  unfold parse_regex_value. destruct c; [reflexivity|].
  destruct (opt_value k_e k_regex some_str a) as [|s0 l0| |]; try discriminate.
  destruct (parse_re s0); discriminate.
Qed.

Theorem parse_args_builds_parsed_opt argv o : parse_args argv = POpt o -> parsed_opt o.
Proof.
  enough (G : pres_ok parsed_opt (parse_args argv)) by (intros H; rewrite H in G; exact G).
  unfold parse_args. destruct argv as [|a0 argv']; [exact I|]. generalize (a0 :: argv'). intros argv.
  apply with_flag_ok; intros h a1. destruct h; [exact I|].
  apply (with_opt_value_ok _ _ parsed_ublist_ok); intros mf a2 Hmf.
  apply (with_opt_value_ok _ _ parsed_ublist_ok); intros mc a3 Hmc.
  apply (with_opt_value_ok _ _ parsed_ublist_ok); intros mb a4 Hmb.
  apply (with_opt_value_ok _ _ parsed_ublist_ok); intros ml a5 Hml.
  destruct (pick_mode_ok mf mb mc ml Hmf Hmb Hmc Hml) as [Hb Hn].
  destruct (pick_mode mf mb mc ml) as [bt bounds]. cbn [fst snd] in *.
  repeat first [apply with_flag_ok; intros ? ? | apply with_value_ok; intros ? ? | apply stop_or_ok; [exact I|]].
  destruct (parse_regex_value (btype_eqb bt BChars) _) as [lr|[x|] lr| |] eqn:Erx; try exact I;
    repeat first [apply with_flag_ok; intros ? ? | apply with_value_ok; intros ? ?
                 | apply stop_or_ok; [exact I|] | apply no_rest_ok].
  - split; [exact Hb | split; [discriminate | exact Hn]].
  - split; [exact Hb | split; [|exact Hn]]. intros E. cbn [o_regex o_btype] in *. injection E as ->.
    apply parse_regex_value_chars in Erx. destruct bt; try discriminate. reflexivity.
Qed.

Theorem run_opt_total o input : parsed_opt o -> mres_ok (run_opt o input).
Proof.
  intros [Hb [Hc Hn]]. unfold run_opt. destruct (o_fixed_memory o).
  - destruct (stream_opt o) as [so|] eqn:Es; [|exact I].
    apply fixed_memory_total.
    destruct (stream_opt_view o so Es) as (_ & _ & _ & _ & _ & _ & _ & _ & -> & _). exact Hn.
  - assert (Hrec : mres_ok (if fast_eligible o then lift (read_and_cut_fast o input)
                            else lift (read_and_cut_str o input))).
    { destruct (fast_eligible o) eqn:Ef; [apply fast_lane_total | apply general_path_total]; assumption. }
    destruct (o_btype o); [apply byte_mode_total | exact Hrec | exact Hrec | apply line_mode_total; assumption].
Qed.
