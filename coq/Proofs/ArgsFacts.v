(** Look-ups of the pico-args model on a command line given as a list of optional entries
    (a key, or a key and its value, each present or not).  If no token outside the key's own
    entry can be taken for the key (a condition on the tokens alone, not on the presence bits),
    a look-up returns that entry's presence bit (and value) and leaves the other entries. *)
From TucModel Require Import Base.Bytes Model.Args.

Definition none_of (p : bytes -> bool) (l : args) : bool := forallb (fun x => negb (p x)) l.

Lemma none_of_app p l1 l2 : none_of p (l1 ++ l2) = none_of p l1 && none_of p l2.
Proof. apply forallb_app. Qed.

Lemma none_of_or (p q : bytes -> bool) l :
  none_of (fun x => p x || q x) l = true -> none_of p l = true /\ none_of q l = true.
Proof.
  induction l as [|x l IH]; [split; reflexivity|]. cbn. rewrite negb_orb, !andb_true_iff.
  intros [[Hp Hq] Hl]. destruct (IH Hl). repeat split; assumption.
Qed.

Definition first_by (p : bytes -> bool) (find : args -> nat -> option nat) : Prop :=
  forall l i, find l i = match l with [] => None | x :: l' => if p x then Some i else find l' (S i) end.

Definition combined_hit (c : byte) (x : bytes) : bool :=
  starts_with [ch_minus] x && negb (is_long x) && existsb (N.eqb c) x.

Lemma index_eq_first key : first_by (fun x => bytes_eqb x key) (index_eq key).
Proof. intros [|x l] i; reflexivity. Qed.

Lemma find_combined_first c : first_by (combined_hit c) (find_combined c).
Proof. intros [|x l] i; reflexivity. Qed.

Lemma index_pred_first prefix : first_by (fun x => index_predicate x prefix) (index_pred prefix).
Proof. intros [|x l] i; reflexivity. Qed.

Lemma first_none p find l i : first_by p find -> none_of p l = true -> find l i = None.
Proof.
  intros F. revert i. induction l as [|x l IH]; intros i H; rewrite F; [reflexivity|].
  cbn in H. apply andb_true_iff in H. destruct H as [Hx Hl]. apply negb_true_iff in Hx.
  rewrite Hx. apply IH, Hl.
Qed.

Lemma first_hit p find l1 x l2 i :
  first_by p find -> none_of p l1 = true -> p x = true -> find (l1 ++ x :: l2) i = Some (length l1 + i).
Proof.
  intros F H Hx. revert i H. induction l1 as [|y l1 IH]; intros i H; rewrite F; cbn [app].
  - rewrite Hx. reflexivity.
  - cbn in H. apply andb_true_iff in H. destruct H as [Hy Hl]. apply negb_true_iff in Hy.
    rewrite Hy, (IH _ Hl). cbn. rewrite Nat.add_succ_r. reflexivity.
Qed.

Lemma remove_nth_app {A} (l1 : list A) x l2 : remove_nth (length l1) (l1 ++ x :: l2) = l1 ++ l2.
Proof. induction l1 as [|y l1 IH]; [reflexivity|]. cbn. rewrite IH. reflexivity. Qed.

Definition exact_hit (short long x : bytes) : bool := bytes_eqb x short || bytes_eqb x long.

Lemma index_of_none short long l : none_of (exact_hit short long) l = true -> index_of short long l = None.
Proof.
  intros H. destruct (none_of_or (fun x => bytes_eqb x short) (fun x => bytes_eqb x long) l H) as [Hs Hl].
  unfold index_of. rewrite (first_none _ _ l 0 (index_eq_first short) Hs), (first_none _ _ l 0 (index_eq_first long) Hl).
  destruct short; [|destruct long]; reflexivity.
Qed.

Lemma index_of_hit short long l1 x l2 :
  short <> [] -> none_of (exact_hit short long) l1 = true -> bytes_eqb x short = true ->
  index_of short long (l1 ++ x :: l2) = Some (length l1, short).
Proof.
  intros Hne H Hx. destruct (none_of_or (fun x => bytes_eqb x short) (fun x => bytes_eqb x long) l1 H) as [Hs _].
  unfold index_of. rewrite (first_hit _ _ l1 x l2 0 (index_eq_first short) Hs Hx), Nat.add_0_r.
  destruct short; [contradiction|reflexivity].
Qed.

Definition flag_clash (short long x : bytes) : bool :=
  exact_hit short long x || match short with [_; c] => combined_hit c x | _ => false end.

Lemma contains_miss short long l : none_of (flag_clash short long) l = true -> contains short long l = (false, l).
Proof.
  intros H. destruct (none_of_or (exact_hit short long) _ l H) as [He Hc].
  unfold contains. rewrite (index_of_none _ _ _ He).
  destruct short as [|? [|c [|? ?]]]; try reflexivity.
  rewrite (first_none _ _ l 0 (find_combined_first c) Hc). reflexivity.
Qed.

Lemma contains_hit short long l1 x l2 :
  short <> [] -> none_of (flag_clash short long) l1 = true -> bytes_eqb x short = true ->
  contains short long (l1 ++ x :: l2) = (true, l1 ++ l2).
Proof.
  intros Hne H Hx. destruct (none_of_or (exact_hit short long) _ l1 H) as [He _].
  unfold contains. rewrite (index_of_hit _ _ _ _ _ Hne He Hx), remove_nth_app. reflexivity.
Qed.

Definition value_clash (short long x : bytes) : bool :=
  exact_hit short long x || index_predicate x short
  || match long with [] => false | _ => index_predicate x long end.

Lemma opt_value_miss {A} short long (f : bytes -> option A) l :
  none_of (value_clash short long) l = true -> opt_value short long f l = VAbsent l.
Proof.
  intros H. destruct (none_of_or _ _ l H) as [H' Hl]. destruct (none_of_or _ _ l H') as [He Hs].
  unfold opt_value, find_value, index_of2.
  rewrite (index_of_none _ _ _ He), (first_none _ _ l 0 (index_pred_first short) Hs).
  destruct long as [|c long']; [destruct short; reflexivity|].
  rewrite (first_none _ _ l 0 (index_pred_first (c :: long')) Hl). destruct short; reflexivity.
Qed.

Lemma opt_value_hit {A} short long (f : bytes -> option A) l1 x v l2 a :
  short <> [] -> none_of (value_clash short long) l1 = true -> bytes_eqb x short = true -> f v = Some a ->
  opt_value short long f (l1 ++ x :: v :: l2) = VPresent a (l1 ++ l2).
Proof.
  intros Hne H Hx Hf. destruct (none_of_or _ _ l1 H) as [H' _]. destruct (none_of_or _ _ l1 H') as [He _].
  unfold opt_value, find_value. rewrite (index_of_hit _ _ _ _ _ Hne He Hx).
  replace (nth_error (l1 ++ x :: v :: l2) (S (length l1))) with (Some v).
  - rewrite Hf, !remove_nth_app. reflexivity.
  - clear. induction l1 as [|y l1 IH]; [reflexivity|exact IH].
Qed.

Definition entry : Type := (bool * args)%type.

Definition flat (es : list entry) : args := flat_map (fun e : entry => if fst e then snd e else []) es.
Definition quiet (clash : bytes -> bool) (es : list entry) : bool :=
  none_of clash (flat_map (fun e : entry => snd e) es).

Lemma quiet_flat p es : quiet p es = true -> none_of p (flat es) = true.
Proof.
  unfold quiet. induction es as [|[b t] es IH]; [reflexivity|]. cbn [flat flat_map fst snd].
  rewrite !none_of_app, !andb_true_iff. intros [Ht He]. split; [destruct b; [exact Ht|reflexivity]|exact (IH He)].
Qed.

Definition begins (key : bytes) (e : entry) : bool :=
  match key, snd e with _ :: _, k :: _ => bytes_eqb k key | _, _ => false end.

Fixpoint take (key : bytes) (es : list entry) : option (list entry * entry * list entry) :=
  match es with
  | [] => None
  | e :: es' =>
      if begins key e then Some ([], e, es')
      else match take key es' with
           | Some (p, x, q) => Some (e :: p, x, q)
           | None => None
           end
  end.

Lemma take_split key es p x q : take key es = Some (p, x, q) -> es = p ++ x :: q /\ begins key x = true.
Proof.
  revert p. induction es as [|e es IH]; intros p; [discriminate|]. cbn [take].
  destruct (begins key e) eqn:E; [intros [= <- <- <-]; split; [reflexivity|exact E]|].
  destruct (take key es) as [[[p' x'] q']|]; [|discriminate]. intros [= <- <- <-].
  destruct (IH p' eq_refl) as [-> Hx]. split; [reflexivity|exact Hx].
Qed.

Lemma flat_app es1 es2 : flat (es1 ++ es2) = flat es1 ++ flat es2.
Proof. apply flat_map_app. Qed.

Lemma contains_flat short long es es1 b k es2 :
  take short es = Some (es1, (b, [k]), es2) -> quiet (flag_clash short long) (es1 ++ es2) = true ->
  contains short long (flat es) = (b, flat (es1 ++ es2)).
Proof.
  intros T Q. apply quiet_flat in Q. destruct (take_split _ _ _ _ _ T) as [-> Hk]. rewrite !flat_app in *.
  destruct b; [|exact (contains_miss _ _ _ Q)]. rewrite none_of_app in Q. apply andb_true_iff in Q.
  unfold begins in Hk. destruct short; [discriminate|].
  refine (contains_hit _ _ _ _ _ _ (proj1 Q) Hk). discriminate.
Qed.

Lemma opt_value_flat {A} short long (f : bytes -> option A) es es1 b k v es2 :
  take short es = Some (es1, (b, [k; v]), es2) ->
  quiet (value_clash short long) (es1 ++ es2) && is_some (f v) = true ->
  opt_value short long f (flat es)
  = if b then match f v with Some a => VPresent a (flat (es1 ++ es2)) | None => VBad end
    else VAbsent (flat (es1 ++ es2)).
Proof.
  intros T Q. apply andb_true_iff in Q. destruct Q as [Q Hf]. apply quiet_flat in Q.
  destruct (take_split _ _ _ _ _ T) as [-> Hk]. rewrite !flat_app in *.
  destruct b; [|exact (opt_value_miss _ _ _ _ Q)]. destruct (f v) as [a|] eqn:E; [|discriminate].
  rewrite none_of_app in Q. apply andb_true_iff in Q.
  unfold begins in Hk. destruct short; [discriminate|].
  refine (opt_value_hit _ _ _ _ _ _ _ _ _ (proj1 Q) Hk E). discriminate.
Qed.

(** the same, shaped for [eapply] on a goal that begins with the look-up *)
Lemma flag_step short long es k es1 b x es2 r :
  take short es = Some (es1, (b, [x]), es2) -> quiet (flag_clash short long) (es1 ++ es2) = true ->
  k b (flat (es1 ++ es2)) = r -> with_flag short long (flat es) k = r.
Proof. intros T Q <-. unfold with_flag. rewrite (contains_flat _ _ _ _ _ _ _ T Q). reflexivity. Qed.

Lemma value_step A short long (f : bytes -> option A) es k es1 b x v es2 r :
  take short es = Some (es1, (b, [x; v]), es2) ->
  quiet (value_clash short long) (es1 ++ es2) && is_some (f v) = true ->
  k (if b then f v else None) (flat (es1 ++ es2)) = r -> with_value (opt_value short long f (flat es)) k = r.
Proof.
  intros T Q <-. rewrite (opt_value_flat _ _ _ _ _ _ _ _ _ T Q). apply andb_true_iff in Q.
  destruct b, (f v); try reflexivity. destruct Q; discriminate.
Qed.

Lemma value_step_if A (c : bool) short long (f : bytes -> option A) es k es1 b x v es2 r y :
  y = (if c then opt_value short long f (flat es) else VAbsent (flat es)) ->
  take short es = Some (es1, (b, [x; v]), es2) ->
  quiet (value_clash short long) (es1 ++ es2) && is_some (f v) = true ->
  k (if c && b then f v else None) (flat (es1 ++ (negb c && b, [x; v]) :: es2)) = r -> with_value y k = r.
Proof.
  intros -> T Q H. destruct c.
  - apply (value_step _ _ _ _ _ _ _ _ _ _ _ _ T Q). rewrite !flat_app in *. exact H.
  - destruct (take_split _ _ _ _ _ T) as [-> _]. exact H.
Qed.
