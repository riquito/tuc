(** C11 for -l (both algorithms); for -c, that the exchange keeps the character boundaries. *)
From TucModel Require Import Base.Bytes Model.Bounds Model.Utf8 Model.Opt
     Model.CutBytes Model.CutStr Model.CutLines Proofs.C11 Proofs.C11Run Proofs.C11Utf8.

Section Renaming.
  Variable f : byte -> byte.
  Hypothesis f_inj : forall a b, f a = f b -> a = b.
  (** the renaming keeps UTF-8 validity (true of the LF/NUL exchange) *)
  Hypothesis f_utf8 : forall l, utf8_valid (map f l) = utf8_valid l.
  Notation rn := (map f).
  Notation ri := (rename_item f).
  Notation ro := (rename_opt f).

  Lemma sep_rename o (bs : list bof) :
    (if o_join (ro o) && nonempty (map ri bs) then [o_eol (ro o)] else [])
    = rn (if o_join o && nonempty bs then [o_eol o] else []).
  Proof. destruct bs; cbn [rename_opt o_join o_eol map nonempty]; destruct (o_join o); reflexivity. Qed.

  Definition rename_fwd (x : bytes * list bof * bool) : bytes * list bof * bool :=
    let '(out, rest, a) := x in (rn out, map ri rest, a).

  Lemma fwd_bounds_rename o : forall bs add idx line,
    fwd_bounds (ro o) (map ri bs) add idx (rn line) = rename_fwd (fwd_bounds o bs add idx line).
  Proof.
    induction bs as [|[b|t] bs IH]; intros add idx line; [reflexivity| |]; rewrite map_cons; cbn [rename_item fwd_bounds].
    - rewrite (matches_rename f). cbn [rename_bound br]. destruct (matches b idx) as [[|]|]; try reflexivity.
      destruct (side_eqb (br b) (SSome idx)).
      + rewrite sep_rename, IH. destruct (fwd_bounds o bs false idx line) as [[out rest] a]. cbn [rename_fwd].
        rewrite !map_app. destruct add; reflexivity.
      + cbn [rename_fwd]. destruct add; reflexivity.
    - rewrite sep_rename, IH.
      destruct (fwd_bounds o bs add idx line) as [[out rest] a]. cbn [rename_fwd]. rewrite !map_app. reflexivity.
  Qed.

  Lemma fwd_tail_rename o : forall bs, fwd_tail (ro o) (map ri bs) = option_map rn (fwd_tail o bs).
  Proof.
    induction bs as [|[b|t] bs IH]; [reflexivity| |]; rewrite map_cons; cbn [rename_item fwd_tail]; rewrite sep_rename, IH.
    - change (o_fallback (ro o)) with (option_map rn (o_fallback o)). rewrite (fallback_for_rename f).
      destruct (fallback_for b (o_fallback o)); cbn [option_map]; [|reflexivity].
      destruct (fwd_tail o bs); cbn [option_map]; rewrite ?map_app; reflexivity.
    - destruct (fwd_tail o bs); cbn [option_map]; rewrite ?map_app; reflexivity.
  Qed.

  Lemma fwd_finish_rename o bs add : fwd_finish (ro o) (map ri bs) add = option_map rn (fwd_finish o bs add).
  Proof.
    pose proof (fwd_tail_rename o bs) as T. unfold fwd_finish.
    destruct bs as [|[b|t] bs']; try exact T. rewrite map_cons in *. cbn [rename_item rename_bound br].
    destruct add; [|exact T]. destruct (br b); [reflexivity|].
    rewrite sep_rename, fwd_tail_rename. destruct (fwd_tail o bs'); cbn [option_map]; rewrite ?map_app; reflexivity.
  Qed.

  Lemma fwd_lines_rename o : forall ls bs add idx acc,
    fwd_lines (ro o) (map rn ls) (map ri bs) add idx (rn acc)
    = rename_outcome f (fwd_lines o ls bs add idx acc).
  Proof.
    induction ls as [|line ls IH]; intros bs add idx acc; cbn [map fwd_lines]; change (o_eol (ro o)) with (f (o_eol o)).
    - rewrite fwd_finish_rename. destruct (fwd_finish o bs add); cbn [option_map rename_outcome]; rewrite ?map_app; reflexivity.
    - rewrite f_utf8. destruct (negb (utf8_valid line)); [reflexivity|].
      rewrite fwd_bounds_rename. destruct (fwd_bounds o bs add (idx + 1)%Z line) as [[out rest] a]. cbn [rename_fwd].
      destruct rest as [|r0 rest']; cbn [map rename_outcome]; [rewrite ?map_app; reflexivity|].
      rewrite <- map_cons, <- map_app. apply IH.
  Qed.

  Lemma strip_one_suffix_rename eol l : strip_one_suffix (f eol) (rn l) = rn (strip_one_suffix eol l).
  Proof.
    unfold strip_one_suffix. rewrite <- map_rev. destruct (rev l) as [|x r]; [reflexivity|]. cbn [map].
    rewrite (eqb_f f f_inj). destruct (N.eqb x eol); [rewrite map_rev|]; reflexivity.
  Qed.

  Lemma has_range_with_fallback_rename o : has_range_with_fallback (ro o) = has_range_with_fallback o.
  Proof.
    apply existsb_map_ext. intros [b|t]; [|reflexivity]. cbn [rename_item rename_opt o_fallback].
    rewrite (fallback_for_rename f). destruct (fallback_for b (o_fallback o)); reflexivity.
  Qed.

  Lemma can_be_streamed_rename o : can_be_streamed (ro o) = can_be_streamed o.
  Proof.
    unfold can_be_streamed. rewrite has_range_with_fallback_rename.
    cbn [rename_opt o_complement o_compress o_bounds rename_ublist items].
    rewrite (is_forward_only_rename f). reflexivity.
  Qed.

  Theorem lines_rename o input : o_regex o = None -> o_json o = false ->
    read_and_cut_lines (ro o) (rn input) = option_map (rename_outcome f) (read_and_cut_lines o input).
  Proof.
    intros Hx Hj. unfold read_and_cut_lines. rewrite can_be_streamed_rename.
    change (o_eol (ro o)) with (f (o_eol o)). destruct (can_be_streamed o).
    - cbn [option_map]. f_equal. unfold lines_of. rewrite (records_rename f f_inj).
      change (items (o_bounds (ro o))) with (map ri (items (o_bounds o))).
      change (@nil N) with (rn []). apply fwd_lines_rename.
    - unfold cut_lines_buffered. rewrite f_utf8. destruct (negb (utf8_valid input)); [reflexivity|].
      change (o_eol (ro o)) with (f (o_eol o)). rewrite strip_one_suffix_rename.
      rewrite (cut_str_rename f f_inj o _ (rx_blind_none f o Hx) Hj).
      destruct (cut_str o (strip_one_suffix (o_eol o) input)) as [[out| | |]|]; reflexivity.
  Qed.
End Renaming.

(** in line mode the delimiter is the terminator itself; the other texts are neutral *)
Definition neutral_line_texts (o : opt) : Prop :=
  o_delim o = [o_eol o] /\ neutral_opt (o_replace o) /\ neutral_opt (o_fallback o)
  /\ Forall neutral_item (items (o_bounds o)).

Definition with_line_eol (e : byte) (o : opt) : opt :=
  mkOpt [e] e (o_bounds o) (o_btype o) (o_only_delimited o) (o_greedy o) (o_compress o)
        (o_replace o) (o_trim o) (o_complement o) (o_join o) (o_json o) (o_fixed_memory o) (o_fallback o) (o_regex o).

Lemma rename_neutral_line_opt o : neutral_line_texts o -> rename_opt swap o = with_line_eol (swap (o_eol o)) o.
Proof.
  intros [Hd [Hr [Hf Hb]]]. unfold rename_opt, with_line_eol, rename_ublist.
  rewrite Hd, (option_map_neutral _ Hr), (option_map_neutral _ Hf), (rename_neutral_items _ Hb).
  destruct (o_bounds o); reflexivity.
Qed.

Lemma char_matches_swap l : char_matches (map swap l) = char_matches l.
Proof.
  unfold char_matches. rewrite utf8_chars_swap. destruct (utf8_chars l) as [cs|]; cbn [option_map]; [|reflexivity].
  f_equal. f_equal. generalize 0 as pos. induction cs as [|c cs IH]; intros pos; [reflexivity|].
  cbn [map boundaries_from]. rewrite map_length, IH. reflexivity.
Qed.
