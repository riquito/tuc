(** C16: -r R prints the literal text R wherever a delimiter is replaced — for the matches of any
    engine, the selected text comes out as its fields joined by R. *)
From TucModel Require Import Base.Bytes Model.Scan Model.Opt Model.CutStr
     Spec.Fields Proofs.ScanSplit Proofs.Plain.

Lemma replace_matches_is_intercalate (line rep : bytes) (ms : list mtch) :
  replace_matches line ms rep = intercalate rep (pieces line (gaps_from 0 ms (length line))).
Proof. unfold replace_matches. apply replace_is_intercalate. Qed.

Lemma maybe_replace_regex_is_intercalate (o : opt) (x : rx) (nd text : bytes) (ms : list mtch) :
  o_btype o <> BChars -> o_replace o = Some nd -> o_regex o = Some x -> o_compress o = false ->
  rx_normal x text = Some ms ->
  maybe_replace o text = Some (intercalate nd (pieces text (gaps_from 0 ms (length text)))).
Proof.
  intros Hb Hr Hx Hc Hm. unfold maybe_replace. rewrite Hr, Hx, Hc, Hm, replace_matches_is_intercalate.
  destruct (o_btype o); try reflexivity. exfalso. apply Hb. reflexivity.
Qed.

(** with -p the runs of matches were rewritten to R before cutting: the selected text is printed as it is *)
Lemma maybe_replace_after_compress (o : opt) (x : rx) (nd text : bytes) :
  o_replace o = Some nd -> o_regex o = Some x -> o_compress o = true -> maybe_replace o text = Some text.
Proof. intros Hr Hx Hc. unfold maybe_replace. rewrite Hr, Hx, Hc. destruct (o_btype o); reflexivity. Qed.
