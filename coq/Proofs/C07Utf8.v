(** Valid UTF-8 texts are exactly the concatenations of scalar encodings. *)
From TucModel Require Import Base.Bytes Base.ListX Model.Utf8 Proofs.C07.
Local Open Scope N_scope.

Definition scalar (c : bytes) : Prop := utf8_head_len c = Some (length c).

Lemma scalar_shape c : scalar c ->
  c <> [] /\ (forall r, utf8_head_len (c ++ r) = Some (length c)) /\ Forall (fun x => 128 <= x) (tl c).
Proof.
  intros H. destruct (head_len_prefix _ _ H) as (Hk & _ & Hp & Ht). rewrite firstn_all in Hp, Ht.
  split; [intros -> | split]; [cbn in Hk; lia | exact Hp | exact Ht].
Qed.

Lemma utf8_chars_fuel_scalars : forall cs fuel,
  Forall scalar cs -> (length (concat cs) <= fuel)%nat -> utf8_chars_fuel fuel (concat cs) = Some cs.
Proof.
  induction cs as [|c cs IH]; intros fuel Hs Hf; [destruct fuel; reflexivity|].
  inversion Hs as [|? ? Hc Hrest]; subst. destruct (scalar_shape c Hc) as (Hne & Hp & _).
  cbn [concat] in *. rewrite app_length in Hf.
  assert (Hlen : (0 < length c)%nat) by (destruct c; [contradiction | cbn; lia]).
  destruct fuel as [|f]; [lia|].
  rewrite utf8_chars_fuel_S by (destruct c; [contradiction | discriminate]).
  rewrite Hp, skipn_app_length, firstn_app_length, IH by (assumption || lia). reflexivity.
Qed.

Theorem utf8_chars_iff l cs : utf8_chars l = Some cs <-> concat cs = l /\ Forall scalar cs.
Proof.
  split.
  - apply utf8_chars_fuel_spec.
  - intros [<- Hs]. apply utf8_chars_fuel_scalars; [exact Hs | apply Nat.le_refl].
Qed.

Lemma utf8_valid_iff l : utf8_valid l = true <-> exists cs, concat cs = l /\ Forall scalar cs.
Proof.
  unfold utf8_valid. split.
  - destruct (utf8_chars l) as [cs|] eqn:E; [|discriminate]. intros _. exists cs. apply utf8_chars_iff, E.
  - intros (cs & H). apply utf8_chars_iff in H. rewrite H. reflexivity.
Qed.

Theorem scalars_are_valid cs : Forall scalar cs -> utf8_valid (concat cs) = true.
Proof. intros H. apply utf8_valid_iff. exists cs. split; [reflexivity | exact H]. Qed.

Theorem selected_characters_are_valid_utf8 line cs s e :
  utf8_chars line = Some cs -> utf8_valid (concat (slice cs s e)) = true.
Proof.
  intros H. apply scalars_are_valid. apply utf8_chars_iff in H. destruct H as [_ HS].
  unfold slice. apply Forall_forall. intros c Hin.
  apply (proj1 (Forall_forall _ _) HS). apply in_firstn in Hin. apply in_skipn in Hin. exact Hin.
Qed.
