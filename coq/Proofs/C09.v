(** C09: rewriting a negative index -k into n+1-k never changes what a bound denotes. *)
From TucModel Require Import Base.Bytes Model.Bounds Model.CutBytes Model.Opt Model.CutStr
     Model.FastLane Spec.Resolve Proofs.BoundsFacts.
Local Open Scope Z_scope.

Definition mirror_side (s : side) (n : Z) : side :=
  match s with
  | SSome v => if v <? 0 then SSome (n + 1 + v) else s
  | SCont => s
  end.

Inductive rewrites (n : Z) : side -> side -> Prop :=
| rw_same s : rewrites n s s
| rw_mirror v : - n <= v <= -1 -> rewrites n (SSome v) (SSome (n + 1 + v)).

Definition bound_rewrites (n : Z) (b b' : ubound) : Prop :=
  rewrites n (bl b) (bl b') /\ rewrites n (br b) (br b')
  /\ blast b' = blast b /\ bfb b' = bfb b.

Lemma resolve_rw n s s' : 0 <= n -> rewrites n s s' ->
  resolve_left s' n = resolve_left s n /\ resolve_right s' n = resolve_right s n.
Proof.
  intros Hn [|v Hv]; [split; reflexivity|]. rewrite !resolve_left_in, !resolve_right_in by (unfold in_parts; lia).
  rewrite (pos_of_neg v), (pos_of_pos (n + 1 + v)) by lia. split; reflexivity.
Qed.

Theorem C09_try_into_range n b b' :
  bound_rewrites (Z.of_nat n) b b' -> try_into_range b' n = try_into_range b n.
Proof.
  intros [Hl [Hr _]]. unfold try_into_range.
  rewrite (proj1 (resolve_rw _ _ _ (Nat2Z.is_nonneg n) Hl)), (proj2 (resolve_rw _ _ _ (Nat2Z.is_nonneg n) Hr)).
  reflexivity.
Qed.

Theorem C09_complement n b b' :
  bound_rewrites (Z.of_nat n) b b' -> complement_bound b' n = complement_bound b n.
Proof.
  intros H. unfold complement_bound. rewrite (C09_try_into_range n b b' H). reflexivity.
Qed.

Inductive items_rewrite (n : Z) : list bof -> list bof -> Prop :=
| ir_nil : items_rewrite n [] []
| ir_filler f l l' : items_rewrite n l l' -> items_rewrite n (Filler f :: l) (Filler f :: l')
| ir_bound b b' l l' : bound_rewrites n b b' -> items_rewrite n l l' ->
                       items_rewrite n (Bound b :: l) (Bound b' :: l').

(** all that the three output loops look at in an item, on n parts *)
Definition same_output (n : nat) (g g' : option bytes) (x y : bof) : Prop :=
  match x, y with
  | Bound a, Bound b =>
      try_into_range b n = try_into_range a n
      /\ (try_into_range a n = None -> fallback_for b g' = fallback_for a g)
      /\ blast b = blast a
  | Filler f, Filler h => h = f
  | _, _ => False
  end.

Lemma same_output_refl n g x : same_output n g g x x.
Proof. destruct x; cbn; auto. Qed.

Lemma cut_bytes_items_cong g g' data l l' :
  Forall2 (same_output (length data) g g') l l' ->
  cut_bytes_items l' g' data = cut_bytes_items l g data.
Proof.
  induction 1 as [|[a|f] [b|h] l l' H _ IH]; try contradiction; cbn [cut_bytes_items];
    [reflexivity | |cbn in H; rewrite H, IH; reflexivity].
  destruct H as [Er [Ef _]]. rewrite Er, IH.
  destruct (try_into_range a (length data)) as [[s e]|]; [|rewrite Ef]; reflexivity.
Qed.

(** the option sets may differ in what the loop does not read *)
Lemma out_loop_cong o o' line fields l l' :
  (forall t, maybe_replace o' t = maybe_replace o t) -> (forall t, emit_part o' t = emit_part o t) ->
  o_join o' = o_join o -> o_replace o' = o_replace o -> o_delim o' = o_delim o ->
  Forall2 (same_output (length fields) (o_fallback o) (o_fallback o')) l l' ->
  out_loop o' line fields l' = out_loop o line fields l.
Proof.
  intros Hm He Hj Hr Hd.
  induction 1 as [|[a|f] [b|h] l l' H _ IH]; try contradiction; cbn [out_loop];
    [reflexivity | |cbn in H; rewrite H, IH; reflexivity].
  destruct H as [Er [Ef Hla]]. rewrite Er, IH, Hj, Hr, Hd, Hla.
  destruct (try_into_range a (length fields)) as [[s e]|]; [|rewrite Ef by reflexivity].
  - destruct (range_start fields s); [|reflexivity]. destruct (range_end fields (e - 1)); [|reflexivity].
    rewrite Hm. destruct (maybe_replace o _); [rewrite He|]; reflexivity.
  - destruct (fallback_for a (o_fallback o)); [rewrite He|]; reflexivity.
Qed.

Lemma fast_out_cong o o' d line fields l l' :
  o_join o' = o_join o ->
  Forall2 (same_output (length fields - 1) (o_fallback o) (o_fallback o')) l l' ->
  fast_out o' d line fields l' = fast_out o d line fields l.
Proof.
  intros Hj.
  induction 1 as [|[a|f] [b|h] l l' H _ IH]; try contradiction; cbn [fast_out];
    [reflexivity | |cbn in H; rewrite H, IH; reflexivity].
  destruct H as [Er [Ef Hla]]. rewrite Er, IH, Hj, Hla.
  destruct (try_into_range a (length fields - 1)) as [[s e]|]; [|rewrite Ef]; reflexivity.
Qed.

Lemma items_rewrite_same_output n g l l' :
  items_rewrite (Z.of_nat n) l l' -> Forall2 (same_output n g g) l l'.
Proof.
  induction 1 as [|f l l' _ IH|b b' l l' Hb _ IH]; constructor; try exact IH; [reflexivity|].
  split; [exact (C09_try_into_range n b b' Hb)|]. destruct Hb as [_ [_ [Hla Hfb]]].
  unfold fallback_for. rewrite Hfb. auto.
Qed.

Theorem C09_general o line fields l l' :
  items_rewrite (Z.of_nat (length fields)) l l' ->
  out_loop o line fields l' = out_loop o line fields l.
Proof. intros H. apply out_loop_cong, items_rewrite_same_output, H; reflexivity. Qed.
