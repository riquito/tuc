(** C06: byte mode prints exactly the selected bytes.  [item_nz] (an item holds no index 0) is
    kept by whatever rebuilds a list of items. *)
From TucModel Require Import Base.Bytes Base.ListX Model.Bounds Model.CutBytes Spec.Resolve Spec.BytesMode
     Proofs.BoundsFacts.
Local Open Scope Z_scope.

Definition item_nz (x : bof) : Prop := match x with Bound b => bound_nz b | Filler _ => True end.
Definition item_resolves (n : nat) (x : bof) : Prop :=
  match x with Bound b => resolves b n | Filler _ => True end.

Lemma same_but_last_nz x y : same_but_last x y -> item_nz x -> item_nz y.
Proof.
  destruct x as [a|f], y as [b|g]; try contradiction; [|trivial].
  intros [El [Er _]]. unfold item_nz, bound_nz. rewrite El, Er. trivial.
Qed.

Lemma mark_last_nz l : Forall item_nz l -> Forall item_nz (mark_last l).
Proof. exact (Forall2_Forall _ _ _ _ _ same_but_last_nz (mark_last_same l)). Qed.

Lemma from_vec_nz l u : Forall item_nz l -> from_vec l = Some u -> Forall item_nz (items u).
Proof. intros H E. apply from_vec_items in E. destruct E as [-> _]. apply mark_last_nz, H. Qed.

Lemma complement_items_nz l n : Forall item_nz l -> Forall item_nz (complement_items l n).
Proof.
  intros H. apply Forall_flat_map. eapply Forall_impl; [|exact H].
  intros [b|f] Hx; [|constructor; [exact I | constructor]].
  destruct (complement_bound b n) as [cs|] eqn:E; [|constructor; [exact Hx | constructor]].
  apply Forall_map, (complement_bound_nz b n cs Hx E).
Qed.

Lemma complement_list_ok l n u : Forall item_nz l -> complement_list l n = Some u ->
  Forall item_nz (items u) /\ bounds_only (items u) <> [].
Proof.
  intros Hnz H. rewrite (complement_list_items l n u H). split.
  - apply mark_last_nz, complement_items_nz, Hnz.
  - unfold complement_list in H. intros E. apply (f_equal (@length _)) in E.
    rewrite bounds_only_mark_last_len in E. destruct (bounds_only (complement_items l n)); discriminate.
Qed.

Lemma unpack_list_nz l n u : Forall item_nz l -> unpack_list l n = Some u -> Forall item_nz (items u).
Proof.
  intros H. apply from_vec_nz, Forall_flat_map. eapply Forall_impl; [|exact H].
  intros [b|f] Hx; [|constructor; [exact I | constructor]].
  apply Forall_map, (unpack_bound_nz b n Hx).
Qed.

Lemma unpack_list_ok l n : Forall item_nz l -> bounds_only l <> [] ->
  exists u, unpack_list l n = Some u /\ Forall item_nz (items u).
Proof.
  intros Hnz Hne.
  enough (H : exists u, unpack_list l n = Some u)
    by (destruct H as [u E]; exists u; split; [exact E | exact (unpack_list_nz l n u Hnz E)]).
  apply from_vec_some.
  induction Hnz as [|x l Hx _ IH]; [contradiction|]. destruct x as [b|t]; [|exact (IH Hne)].
  destruct (unpack_bound_nz b n Hx) as [_ B]. cbn [flat_map].
  destruct (unpack_bound b n); [contradiction | discriminate].
Qed.

Lemma cut_bytes_items_spec l generic data :
  Forall (item_resolves (length data)) l ->
  cut_bytes_items l generic data = Some (spec_bytes l data).
Proof.
  induction 1 as [|[b|f] l Rx _ IH]; cbn [cut_bytes_items]; [reflexivity | |rewrite IH; reflexivity].
  cbn in Rx. rewrite (try_into_range_resolved b _ Rx), IH. reflexivity.
Qed.

(** [data <> []]: on empty input nothing is printed, not even the format text.  [item_nz]
    follows from [item_resolves] ([resolves_nz]). *)
Theorem C06_exact l generic data :
  data <> [] ->
  Forall item_nz (items l) -> Forall (item_resolves (length data)) (items l) ->
  cut_bytes l generic data = Done (spec_bytes (items l) data).
Proof.
  intros Hne _ Hres. unfold cut_bytes. destruct data as [|x d]; [contradiction|].
  rewrite (cut_bytes_items_spec (items l) generic (x :: d) Hres). reflexivity.
Qed.

(** [selected] holds the bytes at the 1-based positions first_pos .. last_pos *)
Lemma selected_nth b (data : bytes) (k : nat) d :
  bound_nz b -> resolves b (length data) ->
  (k < Z.to_nat (last_pos b (Z.of_nat (length data)) - first_pos b (Z.of_nat (length data)) + 1))%nat ->
  nth k (selected b data) d
  = nth (Z.to_nat (first_pos b (Z.of_nat (length data)) - 1) + k) data d.
Proof.
  intros _ Hres Hk. pose proof (resolves_positions b _ Hres). unfold selected, slice.
  rewrite nth_firstn_lt by lia. apply nth_skipn_add.
Qed.
