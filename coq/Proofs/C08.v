(** C08: what the JSON writer emits for a part decodes back to exactly that part. *)
From TucModel Require Import Base.Bytes Model.Json Spec.JsonSpec Spec.JsonArray.
Local Open Scope N_scope.

Lemma hex_val_digit n : n < 16 -> hex_val (hex_digit n) = Some n.
Proof.
  intros H. unfold hex_digit, hex_val. destruct (N.ltb_spec n 10).
  - rewrite (proj2 (N.leb_le 48 (48 + n))), (proj2 (N.leb_le (48 + n) 57)) by lia. cbn [andb]. f_equal. lia.
  - rewrite (proj2 (N.leb_gt (87 + n) 57)), andb_false_r by lia.
    rewrite (proj2 (N.leb_le 97 (87 + n))), (proj2 (N.leb_le (87 + n) 102)) by lia. cbn [andb]. f_equal. lia.
Qed.

(** how both readers decode \u00XY, applied to the two digits the writer emits for a control byte *)
Lemma u_escape_decodes {T} b (K : N -> option T) : b < 32 ->
  match hex_val (hex_digit (b / 16)), hex_val (hex_digit (b mod 16)) with
  | Some a, Some c => if a <? 8 then K (a * 16 + c) else None
  | _, _ => None
  end = K b.
Proof.
  intros H. assert (b / 16 < 2) by (apply N.div_lt_upper_bound; lia).
  rewrite !hex_val_digit by (lia || (apply N.mod_lt; lia)).
  rewrite (proj2 (N.ltb_lt (b / 16) 8)) by lia. rewrite N.mul_comm, <- N.div_mod'. reflexivity.
Qed.

Lemma json_escape_byte_spec b :
  (exists e, simple_escape e = Some b /\ json_escape_byte b = [92; e])
  \/ (b < 32 /\ json_escape_byte b = [92; 117; 48; 48; hex_digit (b / 16); hex_digit (b mod 16)])
  \/ (32 <= b /\ b <> 34 /\ b <> 92 /\ json_escape_byte b = [b]).
Proof.
  unfold json_escape_byte.
  destruct (N.eqb_spec b 34) as [->|?]; [left; exists 34; split; reflexivity|].
  destruct (N.eqb_spec b 92) as [->|?]; [left; exists 92; split; reflexivity|].
  destruct (N.eqb_spec b 8) as [->|?]; [left; exists 98; split; reflexivity|].
  destruct (N.eqb_spec b 9) as [->|?]; [left; exists 116; split; reflexivity|].
  destruct (N.eqb_spec b 10) as [->|?]; [left; exists 110; split; reflexivity|].
  destruct (N.eqb_spec b 12) as [->|?]; [left; exists 102; split; reflexivity|].
  destruct (N.eqb_spec b 13) as [->|?]; [left; exists 114; split; reflexivity|].
  destruct (N.ltb_spec b 32); [right; left | right; right]; repeat split; assumption.
Qed.

Lemma json_unescape_simple e b r : simple_escape e = Some b ->
  json_unescape (92 :: e :: r) = option_map (cons b) (json_unescape r).
Proof.
  unfold simple_escape. intros H.
  repeat match type of H with
         | (if ?x =? ?k then _ else _) = _ =>
             destruct (N.eqb_spec x k) as [->|_]; [injection H as <-; reflexivity|]
         end.
  discriminate.
Qed.

Lemma json_unescape_u h l r :
  json_unescape (92 :: 117 :: 48 :: 48 :: h :: l :: r)
  = match hex_val h, hex_val l with
    | Some a, Some b => if a <? 8 then option_map (cons (a * 16 + b)) (json_unescape r) else None
    | _, _ => None
    end.
Proof. reflexivity. Qed.

(** the reader tells a backslash from any other byte by matching on the numeral: seven binary
    digits are inspected, and leaving the path of 92 at any of them gives the ordinary branch *)
Lemma json_unescape_plain b r : b <> 92 ->
  json_unescape (b :: r) = if (b <? 32) || (b =? 34) then None else option_map (cons b) (json_unescape r).
Proof.
  intros H. cbn [json_unescape]. destruct b as [|p]; [reflexivity|].
  do 7 (destruct p as [p|p|]; try reflexivity). contradiction H. reflexivity.
Qed.

Lemma escape_byte_roundtrip b r :
  json_unescape (json_escape_byte b ++ r) = option_map (cons b) (json_unescape r).
Proof.
  destruct (json_escape_byte_spec b) as [(e & He & ->)|[(Hlt & ->)|(Hge & H34 & H92 & ->)]]; cbn [app].
  - apply json_unescape_simple, He.
  - rewrite json_unescape_u. apply (u_escape_decodes b (fun x => option_map (cons x) (json_unescape r)) Hlt).
  - rewrite (json_unescape_plain b r H92), (proj2 (N.ltb_ge b 32) Hge), (proj2 (N.eqb_neq b 34) H34).
    reflexivity.
Qed.

Lemma low_bytes_roundtrip :
  forallb (fun b => match json_unescape (json_escape_byte b) with
                    | Some [x] => N.eqb x b
                    | _ => false
                    end) (map N.of_nat (seq 0 32)) = true.
Proof.
  apply forallb_forall. intros b _.
  rewrite <- (app_nil_r (json_escape_byte b)), escape_byte_roundtrip. apply N.eqb_refl.
Qed.

Theorem json_unescape_escape s : json_unescape (flat_map json_escape_byte s) = Some s.
Proof.
  induction s as [|b s IH]; [reflexivity|]. cbn [flat_map].
  rewrite escape_byte_roundtrip, IH. reflexivity.
Qed.
