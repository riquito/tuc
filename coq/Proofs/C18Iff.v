(** C18: the parser accepts exactly the language of Spec/BoundsGrammar.v (lists without
    format text), and builds the bounds the grammar assigns. *)
From TucModel Require Import Base.Bytes Model.Bounds Model.BoundsParse Spec.Fields Spec.BoundsGrammar
     Proofs.BoundsFacts Proofs.C05 Proofs.Plain.
Local Open Scope Z_scope.

Lemma is_digit_iff x : is_digit x = true <-> digit x.
Proof.
  unfold is_digit, digit. rewrite andb_true_iff, !N.leb_le. tauto.
Qed.

Lemma digits_val_iff ds : forall acc v,
  digits_val acc ds = Some v <-> Forall digit ds /\ v = dec_value acc ds.
Proof.
  induction ds as [|x ds IH]; intros acc v; cbn [digits_val dec_value].
  - split; [intros H; injection H as <-; split; [constructor | reflexivity] | intros [_ ->]; reflexivity].
  - rewrite Forall_cons_iff, <- is_digit_iff. destruct (is_digit x).
    + rewrite IH. tauto.
    + split; [discriminate | intros [[H _] _]; discriminate H].
Qed.

Definition in_i32 (v : Z) : Prop := -2147483648 <= v <= 2147483647.

Lemma range_check v : ((i32_min <=? v) && (v <=? i32_max)) = true <-> in_i32 v.
Proof. unfold in_i32, i32_min, i32_max. rewrite andb_true_iff, !Z.leb_le. tauto. Qed.

Lemma digit_not_sign x : digit x -> N.eqb x ch_minus = false /\ N.eqb x ch_plus = false.
Proof. unfold digit, ch_minus, ch_plus. intros [A B]. split; apply N.eqb_neq; lia. Qed.

Lemma digits_val_digits ds : Forall digit ds -> digits_val 0 ds = Some (dec_value 0 ds).
Proof. intros H. apply digits_val_iff. split; [exact H | reflexivity]. Qed.

Theorem parse_i32_iff s v : parse_i32 s = Some v <-> int_lit s v /\ in_i32 v.
Proof.
  unfold parse_i32. split.
  - (* whatever the sign, the digits are read alike; then the sign names the constructor *)
    destruct (match s with [] => _ | _ :: _ => _ end) as [neg ds] eqn:Es.
    destruct ds as [|c ds']; [discriminate|].
    destruct (digits_val 0 (c :: ds')) as [w|] eqn:D; [|discriminate].
    apply digits_val_iff in D. destruct D as [HF ->]. cbv zeta.
    destruct (_ && _) eqn:R; [|discriminate]. intros H; injection H as <-.
    split; [|apply range_check, R]. destruct s as [|x r]; [discriminate|].
    destruct (N.eqb_spec x ch_minus) as [->|_]; [|destruct (N.eqb_spec x ch_plus) as [->|_]].
    + injection Es as <- ->. apply il_minus; [discriminate | exact HF].
    + injection Es as <- ->. apply il_plus; [discriminate | exact HF].
    + injection Es as <- -> ->. apply il_plain; [discriminate | exact HF].
  - intros [HL HR]. apply range_check in HR.
    destruct HL as [ds Hne HF|ds Hne HF|ds Hne HF]; (destruct ds as [|x r]; [contradiction|]).
    + inversion HF as [|? ? Hx _]; subst. destruct (digit_not_sign x Hx) as [-> ->].
      rewrite (digits_val_digits _ HF), HR. reflexivity.
    + change (N.eqb ch_plus ch_minus) with false. rewrite N.eqb_refl.
      rewrite (digits_val_digits _ HF), HR. reflexivity.
    + rewrite N.eqb_refl. rewrite (digits_val_digits _ HF), HR. reflexivity.
Qed.

Definition idx_byte (x : byte) : Prop := digit x \/ x = ch_plus \/ x = ch_minus.

Lemma int_lit_bytes s v : int_lit s v -> s <> [] /\ Forall idx_byte s.
Proof.
  assert (G : forall ds, Forall digit ds -> Forall idx_byte ds).
  { intros ds. apply Forall_impl. intros x Hx. left. exact Hx. }
  intros [ds Hne HF|ds Hne HF|ds Hne HF].
  - split; [exact Hne | exact (G ds HF)].
  - split; [discriminate | constructor; [right; left; reflexivity | exact (G ds HF)]].
  - split; [discriminate | constructor; [right; right; reflexivity | exact (G ds HF)]].
Qed.

Lemma idx_byte_not c x : idx_byte x -> (c = ch_colon \/ c = ch_eq \/ c = ch_comma) -> N.eqb x c = false.
Proof.
  unfold idx_byte, digit, ch_plus, ch_minus, ch_colon, ch_eq, ch_comma.
  intros H Hc. apply N.eqb_neq. destruct Hc as [ -> | [ -> | -> ] ]; destruct H as [ [A B] | [ -> | -> ] ]; lia.
Qed.

Lemma split_once_none c : forall s a, split_once c s = (a, None) -> a = s /\ dfree c s.
Proof.
  induction s as [|x s IH]; intros a; cbn [split_once].
  - intros H; injection H as <-. split; [reflexivity | constructor].
  - destruct (N.eqb x c) eqn:E; [discriminate|].
    destruct (split_once c s) as [a' b'] eqn:Es. intros H; injection H as <- ->.
    destruct (IH a' eq_refl) as [-> Hf]. split; [reflexivity | constructor; assumption].
Qed.

Lemma split_once_some c : forall s a b, split_once c s = (a, Some b) -> s = a ++ c :: b /\ dfree c a.
Proof.
  induction s as [|x s IH]; intros a b; cbn [split_once]; [discriminate|].
  destruct (N.eqb x c) eqn:E.
  - intros H; injection H as <- <-. apply N.eqb_eq in E. subst x. split; [reflexivity | constructor].
  - destruct (split_once c s) as [a' b'] eqn:Es. intros H; injection H as <- ->.
    destruct (IH a' b eq_refl) as [-> Hf]. split; [reflexivity | constructor; assumption].
Qed.

Lemma split_once_app c a b : dfree c a -> split_once c (a ++ c :: b) = (a, Some b).
Proof.
  induction a as [|x a IH]; intros H; cbn [app split_once].
  - rewrite N.eqb_refl. reflexivity.
  - inversion H as [|? ? Hx Ha]; subst. rewrite Hx, (IH Ha). reflexivity.
Qed.

Lemma split_once_free c s : dfree c s -> split_once c s = (s, None).
Proof.
  induction s as [|x s IH]; intros H; cbn [split_once]; [reflexivity|].
  inversion H as [|? ? Hx Hs]; subst. rewrite Hx, (IH Hs). reflexivity.
Qed.

(** the part of UserBounds::from_str after the fallback has been split off *)
Definition parse_range (s : bytes) : option (side * side) :=
  match s with
  | [] => None
  | _ =>
    if bytes_eqb s [ch_colon] then None
    else
      let '(a, rest) := split_once ch_colon s in
      let sides :=
        match rest with
        | None => match parse_side a with Some x => Some (x, x) | None => None end
        | Some b =>
            match a, b with
            | [], _ => match parse_side b with Some r => Some (SCont, r) | None => None end
            | _, [] => match parse_side a with Some l => Some (l, SCont) | None => None end
            | _, _ => match parse_side a, parse_side b with
                      | Some l, Some r => Some (l, r)
                      | _, _ => None
                      end
            end
        end in
      match sides with
      | None => None
      | Some (l, r) =>
          if side_is_zero l || side_is_zero r then None
          else
            match l, r with
            | SSome lv, SSome rv => if (rv <? lv) && same_sign rv lv then None else Some (l, r)
            | _, _ => Some (l, r)
            end
      end
  end.

Lemma parse_bound_unfold s0 :
  parse_bound s0 = let '(s, fb) := split_once ch_eq s0 in
                   match parse_range s with
                   | Some (l, r) => Some (mkB l r false fb)
                   | None => None
                   end.
Proof.
  unfold parse_bound, parse_range. destruct (split_once ch_eq s0) as [s fb].
  destruct s as [|c s']; [reflexivity|].
  destruct (bytes_eqb (c :: s') [ch_colon]); [reflexivity|].
  destruct (split_once ch_colon (c :: s')) as [a rest].
  match goal with |- match ?X with _ => _ end = _ => destruct X as [[l r]|] end; [|reflexivity].
  destruct (side_is_zero l || side_is_zero r); [reflexivity|].
  destruct l as [lv|]; destruct r as [rv|]; try reflexivity.
  destruct ((rv <? lv) && same_sign rv lv); reflexivity.
Qed.

Lemma bytes_eqb_spec a b : reflect (a = b) (bytes_eqb a b).
Proof.
  revert b; induction a as [|x a IH]; intros [|y b]; cbn [bytes_eqb]; try (constructor; congruence).
  destruct (N.eqb_spec x y) as [->|Hxy]; cbn [andb]; [|constructor; congruence].
  destruct (IH b) as [->|Hab]; constructor; congruence.
Qed.

Lemma parse_side_index s x :
  s <> [] -> parse_side s = Some x -> side_is_zero x = false -> exists v, x = SSome v /\ index_lit s v.
Proof.
  intros Hs. unfold parse_side. destruct s as [|c s']; [contradiction|].
  destruct (parse_i32 (c :: s')) as [w|] eqn:E; [|discriminate]. intros H Z; injection H as <-.
  apply parse_i32_iff in E. destruct E as [A B]. apply Z.eqb_neq in Z. exists w.
  split; [reflexivity | exact (conj A (conj B Z))].
Qed.

Lemma index_lit_free s v c : index_lit s v -> (c = ch_colon \/ c = ch_eq \/ c = ch_comma) -> dfree c s.
Proof.
  intros [H _] Hc. destruct (int_lit_bytes s v H) as [_ HF].
  eapply Forall_impl; [|exact HF]. intros x Hx. apply idx_byte_not; assumption.
Qed.

Lemma index_lit_ne s v : index_lit s v -> s <> [].
Proof. intros [H _]. apply (int_lit_bytes s v H). Qed.

Lemma index_parse s v : index_lit s v -> parse_side s = Some (SSome v).
Proof.
  intros H. pose proof (index_lit_ne s v H) as Hne. destruct H as [A [B _]].
  unfold parse_side. destruct s; [contradiction|]. rewrite (proj2 (parse_i32_iff _ v) (conj A B)). reflexivity.
Qed.

Lemma index_nonzero s v : index_lit s v -> side_is_zero (SSome v) = false.
Proof. intros [_ [_ H]]. apply Z.eqb_neq, H. Qed.

Lemma order_check l r : (r <? l) && same_sign r l = false <-> (same_sign r l = true -> l <= r).
Proof.
  destruct (same_sign r l); [rewrite andb_true_r, Z.ltb_ge | rewrite andb_false_r]; split; auto; discriminate.
Qed.

Theorem parse_range_sound s l r : parse_range s = Some (l, r) -> range_text s l r.
Proof.
  unfold parse_range. destruct s as [|c s']; [discriminate|]. set (s := c :: s').
  destruct (bytes_eqb_spec s [ch_colon]) as [|Hcol]; [discriminate|].
  destruct (split_once ch_colon s) as [a rest] eqn:Es.
  match goal with |- match ?X with _ => _ end = _ -> _ => destruct X as [[l0 r0]|] eqn:Esides end; [|discriminate].
  destruct (side_is_zero l0 || side_is_zero r0) eqn:Z; [discriminate|].
  apply orb_false_iff in Z. destruct Z as [Zl Zr].
  (* each text that was parsed is an index; the case says which production applies *)
  destruct rest as [b|].
  - destruct (split_once_some _ _ _ _ Es) as [Eq _]. rewrite Eq.
    destruct a as [|a0 a']; [|destruct b as [|b0 b']].
    + destruct (parse_side b) as [x|] eqn:P; [|discriminate]. injection Esides as <- <-.
      assert (Hb : b <> []) by (intros ->; exact (Hcol Eq)).
      destruct (parse_side_index b x Hb P Zr) as [rv [-> Hi]].
      intros H; injection H as <- <-. apply rt_upto, Hi.
    + destruct (parse_side (a0 :: a')) as [x|] eqn:P; [|discriminate]. injection Esides as <- <-.
      destruct (parse_side_index (a0 :: a') x ltac:(discriminate) P Zl) as [lv [-> Hi]].
      intros H; injection H as <- <-. apply rt_from, Hi.
    + destruct (parse_side (a0 :: a')) as [x|] eqn:P1; [|discriminate].
      destruct (parse_side (b0 :: b')) as [y|] eqn:P2; [|discriminate]. injection Esides as <- <-.
      destruct (parse_side_index (a0 :: a') x ltac:(discriminate) P1 Zl) as [lv [-> Hl]].
      destruct (parse_side_index (b0 :: b') y ltac:(discriminate) P2 Zr) as [rv [-> Hr]].
      destruct ((rv <? lv) && same_sign rv lv) eqn:G; [discriminate|].
      intros H; injection H as <- <-. apply rt_closed; [exact Hl | exact Hr | apply order_check, G].
  - destruct (split_once_none _ _ _ Es) as [-> _].
    destruct (parse_side s) as [x|] eqn:P; [|discriminate]. injection Esides as <- <-.
    destruct (parse_side_index s x ltac:(discriminate) P Zl) as [v [-> Hi]].
    rewrite Z.ltb_irrefl. intros H; injection H as <- <-. apply rt_single, Hi.
Qed.

Lemma range_text_shape s l r : range_text s l r -> s <> [] /\ s <> [ch_colon].
Proof.
  intros [t v Hi|a b ? ? Ha _ _|a ? Ha|b ? Hb].
  - split; [exact (index_lit_ne t v Hi)|]. intros ->.
    pose proof (index_lit_free _ v ch_colon Hi ltac:(tauto)) as F. inversion F; discriminate.
  - apply index_lit_ne in Ha. destruct a as [|? [|]]; [contradiction | split; discriminate..].
  - apply index_lit_ne in Ha. destruct a as [|? [|]]; [contradiction | split; discriminate..].
  - apply index_lit_ne in Hb. destruct b; [contradiction | split; discriminate].
Qed.

Theorem parse_range_complete s l r : range_text s l r -> parse_range s = Some (l, r).
Proof.
  intros H. destruct (range_text_shape s l r H) as [Hne Hcol]. unfold parse_range.
  destruct (bytes_eqb_spec s [ch_colon]) as [|_]; [contradiction|].
  assert (F : forall t v, index_lit t v -> dfree ch_colon t) by (intros t v Hi; apply (index_lit_free t v _ Hi); tauto).
  destruct H as [s v Hi|a b l r Ha Hb Hord|a l Ha|b r Hb].
  - destruct s; [contradiction|].
    rewrite (split_once_free _ _ (F _ _ Hi)), (index_parse _ _ Hi). cbv zeta iota beta.
    rewrite (index_nonzero _ _ Hi), Z.ltb_irrefl. reflexivity.
  - pose proof (index_lit_ne a l Ha) as Hna. pose proof (index_lit_ne b r Hb) as Hnb.
    destruct a as [|a0 a']; [contradiction|]. destruct b as [|b0 b']; [contradiction|]. cbn [app].
    rewrite app_comm_cons, (split_once_app _ _ _ (F _ _ Ha)), (index_parse _ _ Ha), (index_parse _ _ Hb). cbv zeta iota beta.
    rewrite (index_nonzero _ _ Ha), (index_nonzero _ _ Hb), (proj2 (order_check l r) Hord). reflexivity.
  - pose proof (index_lit_ne a l Ha) as Hna. destruct a as [|a0 a']; [contradiction|]. cbn [app].
    rewrite app_comm_cons, (split_once_app _ _ _ (F _ _ Ha)), (index_parse _ _ Ha). cbv zeta iota beta.
    rewrite (index_nonzero _ _ Ha). reflexivity.
  - pose proof (index_lit_ne b r Hb) as Hnb. destruct b as [|b0 b']; [contradiction|].
    cbn [split_once]. rewrite N.eqb_refl, (index_parse _ _ Hb). cbv zeta iota beta.
    rewrite (index_nonzero _ _ Hb). reflexivity.
Qed.

Theorem parse_range_iff s l r : parse_range s = Some (l, r) <-> range_text s l r.
Proof. split; [apply parse_range_sound | apply parse_range_complete]. Qed.

(** the bytes of a range: no '=' (so the first '=' of a bound starts its fallback) and no ',' *)
Lemma range_text_free s l r c : range_text s l r -> (c = ch_eq \/ c = ch_comma) -> dfree c s.
Proof.
  intros H Hc.
  assert (Hcc : N.eqb ch_colon c = false) by (destruct Hc as [->| ->]; reflexivity).
  assert (G : forall t v, index_lit t v -> dfree c t).
  { intros t v Hi. apply (index_lit_free t v c Hi). tauto. }
  destruct H as [s v Hi|a b l r Ha Hb _|a l Ha|b r Hb].
  - exact (G _ _ Hi).
  - apply Forall_app. split; [exact (G _ _ Ha) | constructor; [exact Hcc | exact (G _ _ Hb)]].
  - apply Forall_app. split; [exact (G _ _ Ha) | constructor; [exact Hcc | constructor]].
  - constructor; [exact Hcc | exact (G _ _ Hb)].
Qed.

Theorem parse_bound_iff s b : parse_bound s = Some b <-> bound_text s b.
Proof.
  rewrite parse_bound_unfold. split.
  - destruct (split_once ch_eq s) as [t fb] eqn:Es.
    destruct (parse_range t) as [[l r]|] eqn:Er; [|discriminate].
    intros H; injection H as <-. apply parse_range_sound in Er. destruct fb as [f|].
    + destruct (split_once_some _ _ _ _ Es) as [-> _]. apply bt_fallback, Er.
    + destruct (split_once_none _ _ _ Es) as [-> _]. apply bt_plain, Er.
  - intros H. destruct H as [t l r Hr|t f l r Hr].
    + rewrite (split_once_free _ _ (range_text_free t l r ch_eq Hr ltac:(tauto))).
      rewrite (parse_range_complete _ _ _ Hr). reflexivity.
    + rewrite (split_once_app _ _ _ (range_text_free t l r ch_eq Hr ltac:(tauto))).
      rewrite (parse_range_complete _ _ _ Hr). reflexivity.
Qed.

Lemma parse_csv_iff parts : forall l,
  parse_bounds_csv parts = Some l <-> exists bs, Forall2 bound_text parts bs /\ l = map Bound bs.
Proof.
  induction parts as [|p parts IH]; intros l; cbn [parse_bounds_csv].
  - split.
    + intros H; injection H as <-. exists []. split; [constructor | reflexivity].
    + intros [bs [HF ->]]. inversion HF; subst. reflexivity.
  - split.
    + destruct (parse_bound p) as [b|] eqn:E; [|discriminate].
      destruct (parse_bounds_csv parts) as [r|] eqn:Er; [|discriminate].
      intros H; injection H as <-. destruct (proj1 (IH r) eq_refl) as [bs [HF ->]].
      exists (b :: bs). split; [constructor; [apply parse_bound_iff, E | exact HF] | reflexivity].
    + intros [bs [HF ->]]. inversion HF as [|? b ? bs' Hb Hrest]; subst.
      apply parse_bound_iff in Hb. rewrite Hb.
      rewrite (proj2 (IH (map Bound bs')) (ex_intro _ bs' (conj Hrest eq_refl))). reflexivity.
Qed.

Lemma split_on_iff d s parts :
  split_on d s = parts <-> parts <> [] /\ s = intercalate [d] parts /\ Forall (dfree d) parts.
Proof.
  split.
  - intros <-. split; [intros E; exact (split_on_ne _ _ E)|].
    split; [symmetry; apply intercalate_split_on | apply split_on_dfree].
  - intros [Hne [-> HF]]. apply split_intercalate; assumption.
Qed.

Lemma csv_parse c bs :
  csv_text c bs <-> parse_bounds_csv (split_on ch_comma c) = Some (map Bound bs).
Proof.
  rewrite parse_csv_iff. unfold csv_text. split.
  - intros [parts [Hne [E [Hfree HF]]]].
    rewrite (proj2 (split_on_iff ch_comma c parts) (conj Hne (conj E Hfree))).
    exists bs. split; [exact HF | reflexivity].
  - intros [bs' [HF E]]. apply (f_equal bounds_only) in E. rewrite !bounds_only_map_Bound in E. subst bs'.
    exists (split_on ch_comma c).
    destruct (proj1 (split_on_iff ch_comma c _) eq_refl) as [A [B C]]. repeat split; assumption.
Qed.

Lemma bound_text_ne s b : bound_text s b -> s <> [].
Proof.
  intros [t l r Hr|t f l r Hr]; [exact (proj1 (range_text_shape t l r Hr)) | destruct t; discriminate].
Qed.

Lemma csv_text_nonempty s bs : csv_text s bs -> s <> [].
Proof.
  intros (parts & Hne & -> & _ & HF) E. destruct HF as [|p b ps bs Hb _]; [exact (Hne eq_refl)|].
  apply (bound_text_ne p b Hb). destruct p; [reflexivity|]. destruct ps; discriminate.
Qed.

Lemma csv_text_bounds s bs : csv_text s bs -> bs <> [].
Proof. intros [parts [Hne [_ [_ HF]]]] ->. inversion HF; subst. contradiction. Qed.

(** UserBoundsList::from_str on an argument without format text *)
Lemma parse_ublist_plain s u :
  existsb is_brace s = false ->
  (parse_ublist s = Some u <-> exists bs, csv_text s bs /\ from_vec (map Bound bs) = Some u).
Proof.
  intros Hb. unfold parse_ublist, parse_bounds_list. split.
  - destruct s as [|c s']; [discriminate|]. rewrite Hb.
    destruct (parse_bounds_csv (split_on ch_comma (c :: s'))) as [l|] eqn:E; [|discriminate]. intros H.
    destruct (proj1 (parse_csv_iff _ l) E) as [bs [_ ->]].
    exists bs. split; [apply csv_parse, E | exact H].
  - intros [bs [H F]]. pose proof (csv_text_nonempty s bs H) as Hs. destruct s; [contradiction|].
    rewrite Hb, (proj1 (csv_parse _ bs) H). exact F.
Qed.

Theorem parse_ublist_iff s :
  existsb is_brace s = false ->
  ((exists u, parse_ublist s = Some u) <-> (exists bs, csv_text s bs)).
Proof.
  intros Hb. split.
  - intros [u H]. apply (parse_ublist_plain s u Hb) in H. destruct H as [bs [H _]]. exists bs. exact H.
  - intros [bs H]. destruct (from_vec_some (map Bound bs)) as [u F].
    { rewrite bounds_only_map_Bound. exact (csv_text_bounds s bs H). }
    exists u. apply (parse_ublist_plain s u Hb). exists bs. split; assumption.
Qed.

Theorem parse_ublist_structure s u :
  existsb is_brace s = false -> parse_ublist s = Some u ->
  exists bs, csv_text s bs /\ items u = mark_last (map Bound bs).
Proof.
  intros Hb H. apply (parse_ublist_plain s u Hb) in H. destruct H as [bs [H F]].
  exists bs. split; [exact H | apply from_vec_items, F].
Qed.
