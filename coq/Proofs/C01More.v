(** C01, the options that reshape the fields: -g (greedy), -p (compress), -t (trim), -s, stated
    against [split d line], the leftmost non-overlapping fields of the statement ([is_split],
    Spec/Fields.v).  The second half reads [cut_str] as a sequence of stages ([cut_str_stages])
    and gives each stage for a literal delimiter. *)
From TucModel Require Import Base.Bytes Base.ListX Model.Bounds Model.Scan Model.Opt Model.CutStr Model.Scratch
     Spec.Fields Proofs.ScanSplit Proofs.C12 Proofs.Greedy.

(** a run of delimiters counts as one separator: the empty fields strictly inside the
    record disappear, the first and the last field stay even when empty *)
Fixpoint drop_empty_inner (ps : list bytes) : list bytes :=
  match ps with
  | [] => []
  | [p] => [p]
  | p :: rest => match p with [] => drop_empty_inner rest | _ => p :: drop_empty_inner rest end
  end.

Definition squeeze (ps : list bytes) : list bytes :=
  match ps with
  | [] => []
  | p :: rest => p :: drop_empty_inner rest
  end.

Lemma dei_cons_empty q rest : drop_empty_inner ([] :: q :: rest) = drop_empty_inner (q :: rest).
Proof. reflexivity. Qed.

Lemma dei_cons_nonempty p q rest : p <> [] ->
  drop_empty_inner (p :: q :: rest) = p :: drop_empty_inner (q :: rest).
Proof. intros H. destruct p; [contradiction | reflexivity]. Qed.

Lemma kept_v_is_squeeze ps : map (fun k => nth k ps []) (kept_v ps) = squeeze ps.
Proof.
  unfold kept_v, squeeze. destruct ps as [|p rest]; [reflexivity|]. cbn [map nth]. f_equal.
  enough (G : forall rest base pre, length pre = base ->
            map (fun k => nth k (pre ++ rest) []) (kept_inner_v base rest) = drop_empty_inner rest)
    by exact (G rest 1 [p] eq_refl).
  clear. induction rest as [|q r IH]; intros base pre Hb; [reflexivity|]. destruct r as [|q2 r2].
  - cbn [kept_inner_v map drop_empty_inner]. rewrite <- Hb, app_nth2, Nat.sub_diag by lia. reflexivity.
  - rewrite kept_inner_v_cons, map_app. specialize (IH (S base) (pre ++ [q])).
    rewrite <- app_assoc in IH. cbn [app] in IH. rewrite IH by (rewrite app_length; cbn; lia).
    destruct q as [|y ys].
    + rewrite dei_cons_empty. reflexivity.
    + rewrite dei_cons_nonempty by discriminate. cbn [map app]. f_equal.
      rewrite <- Hb, app_nth2, Nat.sub_diag by lia. reflexivity.
Qed.

Lemma select_pieces line (P G : list mtch) ks :
  Forall2 (fun k g => nth_error P k = Some g) ks G ->
  pieces line G = map (fun k => nth k (pieces line P) []) ks.
Proof.
  induction 1 as [|k g ks G Hk _ IH]; [reflexivity|]. cbn [pieces map]. f_equal; [|exact IH].
  symmetry. apply nth_error_nth. unfold pieces. rewrite nth_error_map. exact (f_equal (option_map _) Hk).
Qed.

Theorem greedy_fields d line : d <> [] -> line <> [] ->
  pieces line (fields_of_matches (merge_adjacent (lit_matches d line)) line) = squeeze (split d line).
Proof.
  intros Hd Hl. rewrite (fields_of_matches_ne _ line Hl), (select_pieces line _ _ _ (greedy_table d line Hd Hl)).
  rewrite <- (fields_of_matches_ne _ line Hl), (scan_ranges_split d line Hd Hl). apply kept_v_is_squeeze.
Qed.

Lemma dei_nonempty ps : ps <> [] -> drop_empty_inner ps <> [].
Proof.
  induction ps as [|p ps IH]; intros H; [contradiction|].
  destruct ps as [|q rest]; [discriminate|].
  destruct p; [rewrite dei_cons_empty; apply IH; discriminate | discriminate].
Qed.


(** an empty piece means a delimiter right after another, which is not copied - except at
    offset 0, where the record begins with a delimiter and one copy is kept *)
Lemma compress_from_pieces d line : d <> [] -> forall ps prev,
  wf_ms prev (map (fun p => (p, p + length d)) ps) (length line) ->
  compress_from d line prev ps
  = intercalate d ((if Nat.eqb prev 0 then squeeze else drop_empty_inner)
                     (pieces line (gaps_from prev (map (fun p => (p, p + length d)) ps) (length line)))).
Proof.
  intros Hd. induction ps as [|idx ps IH]; intros prev Hwf.
  - cbn [compress_from map gaps_from pieces fst snd].
    replace (intercalate d _) with (slice line prev (length line)) by (destruct (Nat.eqb prev 0); reflexivity).
    rewrite slice_to_end. destruct (Nat.ltb_spec prev (length line)); [reflexivity | symmetry; apply skipn_all2; lia].
  - cbn [compress_from map gaps_from fst snd]. destruct Hwf as [H1 [_ H3]]. cbn [fst snd] in H1, H3.
    pose proof (wf_ms_le _ _ _ H3) as Hle. rewrite (IH _ H3).
    replace (Nat.eqb (idx + length d) 0) with false by (destruct d; [contradiction | rewrite Nat.add_comm; reflexivity]).
    destruct (gaps_from_cons (idx + length d) (map (fun p => (p, p + length d)) ps) (length line)) as [e [gs ->]].
    cbn [pieces map fst snd]. fold (pieces line gs).
    pose proof (dei_nonempty (slice line (idx + length d) e :: pieces line gs) ltac:(discriminate)) as Hn.
    destruct (Nat.eqb_spec prev 0) as [->|Hp].
    + cbn [squeeze]. rewrite intercalate_cons by exact Hn. destruct (Nat.eqb_spec idx 0) as [->|Hi].
      * rewrite slice_empty. reflexivity.
      * destruct (slice line 0 idx) eqn:Es; [|rewrite <- app_assoc; reflexivity].
        exfalso. revert Es. apply slice_nonempty; lia.
    + rewrite (proj2 (Nat.eqb_neq idx 0)) by lia. destruct (slice line prev idx) as [|y ys].
      * rewrite dei_cons_empty. reflexivity.
      * rewrite dei_cons_nonempty, intercalate_cons, <- app_assoc by (exact Hn || discriminate). reflexivity.
Qed.

Theorem compress_is_squeeze d line : d <> [] ->
  compress_delimiter d line = intercalate d (squeeze (split d line)).
Proof.
  intros Hd. unfold compress_delimiter.
  rewrite (compress_from_pieces d line Hd _ 0 (lit_matches_wf d line)). cbn [Nat.eqb].
  fold (find_iter d line) (lit_matches d line). rewrite (plain_table_pieces d line Hd). reflexivity.
Qed.

Lemma split_go_no_occ d : forall p cur rest,
  no_occ_before d (p ++ rest) (length p) ->
  split_go d 0 cur (p ++ rest) = split_go d 0 (rev p ++ cur) rest.
Proof.
  induction p as [|x p IH]; intros cur rest H; [reflexivity|].
  cbn [app split_go]. pose proof (H 0 ltac:(cbn; lia)) as H0. cbn [skipn app] in H0. rewrite H0.
  rewrite IH; [cbn [rev]; rewrite <- app_assoc; reflexivity|].
  intros j Hj. apply (H (S j)). cbn. lia.
Qed.

Lemma first_occ_no_earlier d p rest : first_occ_at_end d p -> no_occ_before d (p ++ d ++ rest) (length p).
Proof.
  intros Hf j Hj. destruct (starts_with d (skipn j (p ++ d ++ rest))) eqn:E; [|reflexivity].
  exfalso. apply starts_with_true in E. destruct E as [r Er].
  (* an occurrence at offset j < |p| lies inside [p ++ d], and is followed there by |p| - j bytes *)
  assert (Hsplit : (p ++ d) ++ rest = (firstn j p ++ d) ++ r).
  { rewrite <- !app_assoc, <- Er. rewrite <- (firstn_skipn j (p ++ d ++ rest)) at 1. f_equal.
    rewrite firstn_app. replace (j - length p) with 0 by lia. apply app_nil_r. }
  destruct (app_prefix _ _ _ _ Hsplit) as [w Ew]; [rewrite !app_length, firstn_length; lia|].
  rewrite <- app_assoc in Ew. pose proof (Hf _ _ Ew) as ->.
  apply (f_equal (@length _)) in Ew. rewrite !app_length, firstn_length in Ew. cbn [length] in Ew. lia.
Qed.

Lemma no_occ_no_start d p : ~ occurs_in d p -> forall j, starts_with d (skipn j p) = false.
Proof.
  intros Hn j. destruct (starts_with d (skipn j p)) eqn:E; [|reflexivity].
  exfalso. apply Hn. apply starts_with_true in E. destruct E as [r Er].
  exists (firstn j p), r. rewrite <- Er. symmetry. apply firstn_skipn.
Qed.

Theorem split_unique d : d <> [] -> forall ps line, is_split d line ps -> split d line = ps.
Proof.
  intros Hd. unfold is_split, split.
  assert (G : forall ps cur, leftmost_fields d ps ->
            split_go d 0 cur (intercalate d ps)
            = match ps with [] => [] | p :: rest => (rev cur ++ p) :: rest end).
  { induction ps as [|p ps IH]; intros cur H; [contradiction|].
    destruct ps as [|q rest].
    - cbn [intercalate leftmost_fields] in *. rewrite <- (app_nil_r p) at 1.
      rewrite split_go_no_occ.
      + cbn [split_go]. rewrite rev_app_distr, rev_involutive. reflexivity.
      + intros j _. rewrite app_nil_r. apply no_occ_no_start; assumption.
    - destruct H as [Hf Hrest].
      change (intercalate d (p :: q :: rest)) with (p ++ d ++ intercalate d (q :: rest)).
      rewrite split_go_no_occ by (apply first_occ_no_earlier; assumption).
      rewrite split_go_hit by exact Hd. rewrite rev_app_distr, rev_involutive.
      rewrite (IH [] Hrest). reflexivity. }
  intros ps line [E H]. subst line. rewrite (G ps [] H). destruct ps; [contradiction | reflexivity].
Qed.

Lemma first_occ_no_occ d p : d <> [] -> first_occ_at_end d p -> ~ occurs_in d p.
Proof.
  intros Hd H [a [b E]]. specialize (H a (b ++ d)). rewrite E, <- !app_assoc in H.
  specialize (H eq_refl). destruct b; destruct d; try discriminate; contradiction.
Qed.

Lemma leftmost_cons d p qs :
  qs <> [] -> first_occ_at_end d p -> leftmost_fields d qs -> leftmost_fields d (p :: qs).
Proof. destruct qs; [contradiction|]. intros _ Hf Hr. exact (conj Hf Hr). Qed.

Lemma leftmost_firstn d : d <> [] -> forall ps k, 1 <= k -> k <= length ps ->
  leftmost_fields d ps -> leftmost_fields d (firstn k ps).
Proof.
  intros Hd. induction ps as [|p ps IH]; intros k H1 H2 H; [cbn in H2; lia|].
  destruct k as [|k]; [lia|]. cbn [firstn]. destruct ps as [|q qs].
  - cbn in H2. assert (k = 0) by lia. subst k. exact H.
  - destruct H as [Hf Hr]. destruct k as [|k'].
    + apply first_occ_no_occ; assumption.
    + apply leftmost_cons; [discriminate | exact Hf | apply IH; [lia | cbn in *; lia | exact Hr]].
Qed.

Lemma leftmost_skipn d : forall ps s, s < length ps -> leftmost_fields d ps -> leftmost_fields d (skipn s ps).
Proof.
  induction ps as [|p ps IH]; intros s Hs H; [cbn in Hs; lia|].
  destruct s as [|s']; [exact H|]. cbn [skipn]. destruct ps as [|q qs]; [cbn in Hs; lia|].
  destruct H as [_ Hr]. apply IH; [cbn in *; lia | exact Hr].
Qed.

Lemma leftmost_range d ps s k : d <> [] -> 1 <= k -> s + k <= length ps ->
  leftmost_fields d ps -> leftmost_fields d (firstn k (skipn s ps)).
Proof.
  intros Hd H1 H2 H. apply leftmost_firstn; [exact Hd | exact H1 | rewrite skipn_length; lia|].
  apply leftmost_skipn; [lia | exact H].
Qed.

Lemma dei_leftmost d : forall ps, leftmost_fields d ps -> leftmost_fields d (drop_empty_inner ps).
Proof.
  induction ps as [|p ps IH]; intros H; [contradiction|].
  destruct ps as [|q rest]; [exact H|]. destruct H as [Hf Hr]. destruct p as [|y ys].
  - rewrite dei_cons_empty. exact (IH Hr).
  - rewrite dei_cons_nonempty by discriminate.
    apply leftmost_cons; [apply dei_nonempty; discriminate | exact Hf | exact (IH Hr)].
Qed.

Lemma squeeze_leftmost d ps : leftmost_fields d ps -> leftmost_fields d (squeeze ps).
Proof.
  destruct ps as [|p ps]; intros H; [contradiction|]. destruct ps as [|q rest]; [exact H|].
  destruct H as [Hf Hr].
  apply leftmost_cons; [apply dei_nonempty; discriminate | exact Hf | exact (dei_leftmost d _ Hr)].
Qed.

(** -p: cutting the compressed record gives the fields of the record minus the empty ones
    strictly inside *)
Theorem compress_then_split d line : d <> [] ->
  split d (compress_delimiter d line) = squeeze (split d line).
Proof.
  intros Hd. rewrite (compress_is_squeeze d line Hd).
  apply split_unique; [exact Hd|]. split; [reflexivity|].
  apply squeeze_leftmost. apply (split_is_split d line Hd).
Qed.

(** so -p and -g count the same fields *)
Corollary compress_and_greedy_agree d line : d <> [] -> line <> [] ->
  split d (compress_delimiter d line)
  = pieces line (fields_of_matches (merge_adjacent (lit_matches d line)) line).
Proof. intros Hd Hl. rewrite compress_then_split, greedy_fields by assumption. reflexivity. Qed.

Definition copies (d : bytes) (k : nat) : bytes := concat (repeat d k).

Lemma strip_prefix_nil_none d : d <> [] -> strip_prefix d [] = None.
Proof. destruct d; [contradiction | reflexivity]. Qed.

Lemma trim_left_fuel_spec d : d <> [] -> forall fuel l, length l <= fuel ->
  exists k, l = copies d k ++ trim_left_fuel fuel d l
            /\ strip_prefix d (trim_left_fuel fuel d l) = None.
Proof.
  intros Hd. induction fuel as [|f IH]; intros l Hlen.
  - destruct l; [|cbn in Hlen; lia]. exists 0. split; [reflexivity | apply strip_prefix_nil_none, Hd].
  - cbn [trim_left_fuel]. destruct (strip_prefix d l) as [r|] eqn:E.
    + pose proof (strip_prefix_some d l r E) as ->.
      assert (Hr : length r <= f).
      { rewrite app_length in Hlen. destruct d; [contradiction | cbn in Hlen; lia]. }
      destruct (IH r Hr) as [k [E1 E2]]. exists (S k). split; [|exact E2].
      unfold copies in *. cbn [repeat concat]. rewrite <- app_assoc. f_equal. exact E1.
    + exists 0. split; [reflexivity | exact E].
Qed.

(** -t removes every whole copy of the delimiter at the chosen end(s), and nothing else *)
Theorem trim_left_spec d l : d <> [] ->
  exists k, l = copies d k ++ trim_left d l /\ strip_prefix d (trim_left d l) = None.
Proof.
  intros Hd. unfold trim_left. destruct d as [|c d']; [contradiction|].
  apply trim_left_fuel_spec; [discriminate | lia].
Qed.

Lemma copies_comm d k : copies d k ++ d = d ++ copies d k.
Proof.
  unfold copies. induction k as [|k IH]; cbn [repeat concat]; [rewrite app_nil_r; reflexivity|].
  rewrite <- app_assoc, IH. reflexivity.
Qed.

Lemma rev_copies d k : rev (copies (rev d) k) = copies d k.
Proof.
  induction k as [|k IH]; [reflexivity|]. unfold copies in *. cbn [repeat concat].
  rewrite rev_app_distr, IH, rev_involutive. apply copies_comm.
Qed.

Theorem trim_right_spec d l : d <> [] ->
  exists k, l = trim_right d l ++ copies d k
            /\ forall x, trim_right d l <> x ++ d.
Proof.
  intros Hd. unfold trim_right.
  destruct (trim_left_spec (rev d) (rev l) (rev_nonempty d Hd)) as [k [E1 E2]]. exists k. split.
  - rewrite <- (rev_involutive l), E1 at 1. rewrite rev_app_distr, rev_copies. reflexivity.
  - intros x Ex. apply (f_equal (@rev _)) in Ex. rewrite rev_involutive, rev_app_distr in Ex.
    rewrite Ex, strip_prefix_app in E2. discriminate.
Qed.

(** a record has one field - what -s tests - exactly when it holds no delimiter *)
Theorem one_field_iff_no_delimiter d line : d <> [] ->
  (length (split d line) = 1 <-> ~ occurs_in d line).
Proof.
  intros Hd. destruct (split_is_split d line Hd) as [E H]. split.
  - intros Hlen. destruct (split d line) as [|p [|q r]]; try discriminate.
    cbn in E, H. subst p. exact H.
  - intros Hno. destruct (split d line) as [|p [|q r]]; [contradiction | reflexivity|].
    exfalso. apply Hno. exists p, (intercalate d (q :: r)). rewrite <- E. reflexivity.
Qed.

Definition lit_stage (o : opt) (line1 : bytes) : bytes * list mtch :=
  let line := if o_compress o then compress_delimiter (o_delim o) line1 else line1 in
  let ms := if o_greedy o then merge_adjacent (lit_matches (o_delim o) line)
            else lit_matches (o_delim o) line in
  (line, fields_of_matches ms line).

Definition spec_fields (o : opt) (line1 : bytes) : list bytes :=
  if o_compress o || o_greedy o then squeeze (split (o_delim o) line1) else split (o_delim o) line1.

Lemma dei_idem ps : drop_empty_inner (drop_empty_inner ps) = drop_empty_inner ps.
Proof.
  induction ps as [|p ps IH]; [reflexivity|]. destruct ps as [|q rest]; [reflexivity|].
  destruct p as [|y ys].
  - rewrite dei_cons_empty. exact IH.
  - rewrite dei_cons_nonempty by discriminate.
    pose proof (dei_nonempty (q :: rest) ltac:(discriminate)) as Hn.
    destruct (drop_empty_inner (q :: rest)) as [|q' r'] eqn:E; [contradiction|].
    rewrite dei_cons_nonempty by discriminate. rewrite IH. reflexivity.
Qed.

Lemma squeeze_idem ps : squeeze (squeeze ps) = squeeze ps.
Proof. destruct ps as [|p ps]; [reflexivity|]. cbn [squeeze]. rewrite dei_idem. reflexivity. Qed.

Lemma compress_nonempty d line : d <> [] -> line <> [] -> compress_delimiter d line <> [].
Proof.
  intros Hd Hl E. pose proof (compress_then_split d line Hd) as H. rewrite E in H.
  destruct (split_is_split d line Hd) as [Ei _].
  (* the fields of the empty record are the one empty field, and only that is squeezed to it *)
  destruct (split d line) as [|p [|q rest]]; [discriminate H | |].
  - injection H as <-. exact (Hl (eq_sym Ei)).
  - injection H as _ H. exact (dei_nonempty (q :: rest) ltac:(discriminate) (eq_sym H)).
Qed.

Theorem stage_fields o line1 : o_delim o <> [] -> line1 <> [] ->
  pieces (fst (lit_stage o line1)) (snd (lit_stage o line1)) = spec_fields o line1.
Proof.
  intros Hd Hl. unfold lit_stage, spec_fields. cbn [fst snd].
  destruct (o_compress o); destruct (o_greedy o); cbn [orb].
  - rewrite greedy_fields by (try apply compress_nonempty; assumption).
    rewrite compress_then_split by assumption. apply squeeze_idem.
  - rewrite scan_ranges_split by (try apply compress_nonempty; assumption).
    apply compress_then_split; assumption.
  - apply greedy_fields; assumption.
  - apply scan_ranges_split; assumption.
Qed.

Definition finish_record (o : opt) (line : bytes) (fields : list mtch) : rres :=
  let n := length fields in
  if o_only_delimited o && Nat.eqb n 1 then ROk []
  else
    match (if o_complement o then
             match complement_list (items (o_bounds o)) n with
             | Some l => Some (items l)
             | None => None
             end
           else Some (items (o_bounds o))) with
    | None => RErr
    | Some bs1 =>
        match out_loop o line fields bs1 with
        | ROk body => ROk (body ++ [o_eol o])
        | e => e
        end
    end.

Definition is_re (o : opt) : bool := match o_regex o with Some _ => true | None => false end.

(** a regex with -p or -j needs a replacement *)
Definition cut_guard (o : opt) : bool :=
  is_re o && match o_replace o with None => true | Some _ => false end && (o_compress o || o_join o).

(** [None]: -c on invalid UTF-8 *)
Definition cut_trim (o : opt) (line0 : bytes) : option bytes :=
  match o_trim o with
  | None => Some line0
  | Some k =>
      match o_regex o with
      | Some x => match rx_greedy x line0 with
                  | Some ms => Some (trim_matches k ms line0)
                  | None => None
                  end
      | None => Some (trim_lit k (o_delim o) line0)
      end
  end.

(** after -p: the record, the delimiter, and whether the regex splitter is used *)
Definition cut_compress (o : opt) (line1 : bytes) : option (bytes * bytes * bool) :=
  if o_compress o && (btype_eqb (o_btype o) BFields || btype_eqb (o_btype o) BLines) then
    match o_regex o with
    | Some x =>
        match rx_greedy x line1, o_replace o with
        | Some ms, Some nd => Some (replace_matches line1 ms nd, nd, false)
        | _, _ => None
        end
    | None => Some (compress_delimiter (o_delim o) line1, o_delim o, false)
    end
  else Some (line1, o_delim o, is_re o).

Definition cut_split (o : opt) (line delim : bytes) (use_re : bool) : option (list mtch) :=
  if use_re then
    match o_regex o with
    | Some x => if o_greedy o then rx_greedy x line else rx_normal x line
    | None => Some []
    end
  else if o_greedy o then Some (merge_adjacent (lit_matches delim line))
  else Some (lit_matches delim line).

Definition cut_matches (o : opt) (line1 : bytes) : option (bytes * list mtch) :=
  match cut_compress o line1 with
  | None => None
  | Some (line, delim, use_re) => option_map (pair line) (cut_split o line delim use_re)
  end.

(** under -c the two empty pieces at the ends of the table go *)
Definition cut_fields (o : opt) (fields0 : list mtch) : list mtch :=
  if btype_eqb (o_btype o) BChars then drop_outer fields0 else fields0.

Theorem cut_str_stages o line0 :
  cut_str o line0
  = if cut_guard o then Some RErr
    else match cut_trim o line0 with
         | None => None
         | Some [] => Some (ROk (if o_only_delimited o then [] else [o_eol o]))
         | Some line1 =>
             match cut_matches o line1 with
             | None => None
             | Some (line, ms) => cut_tail o line (cut_fields o (fields_of_matches ms line))
             end
         end.
Proof.
  unfold cut_str, cut_matches. fold (is_re o). fold (cut_guard o) (cut_trim o line0).
  destruct (cut_guard o); [reflexivity|].
  destruct (cut_trim o line0) as [[|c l1]|]; [reflexivity | | reflexivity].
  fold (cut_compress o (c :: l1)). destruct (cut_compress o (c :: l1)) as [[[line delim] use_re]|]; [|reflexivity].
  fold (cut_split o line delim use_re). destruct (cut_split o line delim use_re); reflexivity.
Qed.

Lemma cut_guard_literal o : o_regex o = None -> cut_guard o = false.
Proof. intros Hx. unfold cut_guard, is_re. rewrite Hx. reflexivity. Qed.

Lemma cut_trim_none o line0 : o_trim o = None -> cut_trim o line0 = Some line0.
Proof. intros Ht. unfold cut_trim. rewrite Ht. reflexivity. Qed.

Lemma cut_trim_literal o line0 : o_regex o = None ->
  cut_trim o line0 = Some (match o_trim o with None => line0 | Some k => trim_lit k (o_delim o) line0 end).
Proof. intros Hx. unfold cut_trim. rewrite Hx. destruct (o_trim o); reflexivity. Qed.

Lemma cut_compress_literal o line1 : o_regex o = None ->
  cut_compress o line1
  = Some (if o_compress o && (btype_eqb (o_btype o) BFields || btype_eqb (o_btype o) BLines)
          then compress_delimiter (o_delim o) line1 else line1, o_delim o, false).
Proof. intros Hx. unfold cut_compress, is_re. rewrite Hx. destruct (o_compress o && _); reflexivity. Qed.

Lemma cut_split_literal o line delim :
  cut_split o line delim false
  = Some (if o_greedy o then merge_adjacent (lit_matches delim line) else lit_matches delim line).
Proof. unfold cut_split. destruct (o_greedy o); reflexivity. Qed.

Lemma cut_matches_literal o line1 : o_regex o = None ->
  cut_matches o line1
  = Some (let line := if o_compress o && (btype_eqb (o_btype o) BFields || btype_eqb (o_btype o) BLines)
                      then compress_delimiter (o_delim o) line1 else line1 in
          (line, if o_greedy o then merge_adjacent (lit_matches (o_delim o) line)
                 else lit_matches (o_delim o) line)).
Proof. intros Hx. unfold cut_matches. rewrite (cut_compress_literal o line1 Hx), cut_split_literal. reflexivity. Qed.

Lemma cut_compress_keep o line1 :
  o_compress o && (btype_eqb (o_btype o) BFields || btype_eqb (o_btype o) BLines) = false ->
  cut_compress o line1 = Some (line1, o_delim o, is_re o).
Proof. intros Hp. unfold cut_compress. rewrite Hp. reflexivity. Qed.

Lemma cut_split_regex o x line delim : o_regex o = Some x ->
  cut_split o line delim true = if o_greedy o then rx_greedy x line else rx_normal x line.
Proof. intros Hx. unfold cut_split. rewrite Hx. reflexivity. Qed.

Lemma cut_finish_fields o line ms : o_json o = false -> btype_eqb (o_btype o) BChars = false ->
  cut_tail o line (cut_fields o (fields_of_matches ms line)) = Some (finish_record o line (fields_of_matches ms line)).
Proof.
  intros Hj Hb. unfold cut_fields, cut_tail, finish_record. rewrite Hj, Hb. cbn [orb andb].
  destruct (o_only_delimited o && _); [reflexivity|].
  match goal with |- match ?T with _ => _ end = _ => destruct T as [bs1|] end; [|reflexivity].
  destruct (out_loop o line _ bs1); reflexivity.
Qed.

Theorem cut_str_literal o line0 :
  o_regex o = None -> o_btype o = BFields -> o_json o = false ->
  cut_str o line0
  = Some (let line1 := match o_trim o with
                       | None => line0
                       | Some k => trim_lit k (o_delim o) line0
                       end in
          match line1 with
          | [] => ROk (if o_only_delimited o then [] else [o_eol o])
          | _ => finish_record o (fst (lit_stage o line1)) (snd (lit_stage o line1))
          end).
Proof.
  intros Hx Hb Hj. rewrite cut_str_stages, (cut_guard_literal o Hx), (cut_trim_literal o line0 Hx). cbv zeta.
  destruct (match o_trim o with None => line0 | Some k => trim_lit k (o_delim o) line0 end) as [|c l1];
    [reflexivity|].
  rewrite (cut_matches_literal o _ Hx), Hb. cbv zeta. cbn [btype_eqb orb]. rewrite Bool.andb_true_r.
  rewrite (cut_finish_fields o _ _ Hj) by (rewrite Hb; reflexivity). reflexivity.
Qed.
