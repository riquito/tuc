(** try_into_range is exactly the specification's [resolves] / positions (Spec/Resolve.v); what
    mark_last, from_vec and complement_list build. *)
From TucModel Require Import Base.Bytes Base.ListX Model.Bounds Spec.Resolve.
Local Open Scope Z_scope.

(** Well-formed sides never hold index 0 (the parser rejects it). *)
Definition side_nz (s : side) : Prop := match s with SSome v => v <> 0 | SCont => True end.
Definition bound_nz (b : ubound) : Prop := side_nz (bl b) /\ side_nz (br b).

Lemma side_eqb_refl s : side_eqb s s = true.
Proof. destruct s; [apply Z.eqb_refl | reflexivity]. Qed.

Lemma side_eqb_eq a b : side_eqb a b = true -> a = b.
Proof. destruct a, b; try discriminate; [|reflexivity]. intros E. apply Z.eqb_eq in E. subst. reflexivity. Qed.

Lemma pos_of_pos v n : 0 < v -> pos_of v n = v.
Proof. intros H. unfold pos_of. destruct (Z.ltb_spec v 0); [lia | reflexivity]. Qed.

Lemma pos_of_neg v n : v < 0 -> pos_of v n = n + 1 + v.
Proof. intros H. unfold pos_of. destruct (Z.ltb_spec v 0); [reflexivity | lia]. Qed.

Lemma in_parts_pos v n : in_parts v n -> 1 <= pos_of v n <= n.
Proof. unfold in_parts, pos_of. destruct (Z.ltb_spec v 0); lia. Qed.

Lemma opposite_sign_pos v k : 0 < v -> 0 < k -> opposite_sign v k = false.
Proof.
  intros Hv Hk. unfold opposite_sign.
  destruct (Z.ltb_spec k 0); [lia|]. destruct (Z.ltb_spec v 0); [lia|]. rewrite andb_false_r. reflexivity.
Qed.

(** the range test of resolve_left and resolve_right *)
Lemma in_parts_test v n : 0 <= n -> v <> 0 -> ((n <? v) || (v <? - n) = false <-> in_parts v n).
Proof. intros Hn Hv. unfold in_parts. rewrite orb_false_iff, !Z.ltb_ge. lia. Qed.

Lemma range_test_pos v n : 0 < v -> 0 <= n -> (n <? v) || (v <? - n) = negb (v <=? n).
Proof. intros Hv Hn. rewrite (proj2 (Z.ltb_ge v (- n))) by lia. rewrite orb_false_r. apply Z.ltb_antisym. Qed.

Lemma resolve_right_index v n :
  resolve_right (SSome v) n = if (n <? v) || (v <? - n) then None else Some (pos_of v n).
Proof.
  cbn [resolve_right]. unfold pos_of. destruct ((n <? v) || (v <? - n)); [reflexivity|].
  destruct (v <? 0); [f_equal; lia | reflexivity].
Qed.

Lemma resolve_left_index v n :
  resolve_left (SSome v) n = if (n <? v) || (v <? - n) then None else Some (pos_of v n - 1).
Proof.
  cbn [resolve_left]. unfold pos_of. destruct ((n <? v) || (v <? - n)); [reflexivity|].
  destruct (v <? 0); [f_equal; lia | reflexivity].
Qed.

Lemma resolve_right_in v n : 0 <= n -> in_parts v n -> resolve_right (SSome v) n = Some (pos_of v n).
Proof.
  intros Hn H. assert (Hv : v <> 0) by (unfold in_parts in H; lia).
  rewrite resolve_right_index, (proj2 (in_parts_test v n Hn Hv) H). reflexivity.
Qed.

Lemma resolve_left_in v n : 0 <= n -> in_parts v n -> resolve_left (SSome v) n = Some (pos_of v n - 1).
Proof.
  intros Hn H. assert (Hv : v <> 0) by (unfold in_parts in H; lia).
  rewrite resolve_left_index, (proj2 (in_parts_test v n Hn Hv) H). reflexivity.
Qed.

Lemma resolve_left_cases b n : 0 <= n -> side_nz (bl b) ->
  side_in_parts (bl b) n /\ resolve_left (bl b) n = Some (first_pos b n - 1)
  \/ ~ side_in_parts (bl b) n /\ resolve_left (bl b) n = None.
Proof.
  intros Hn. unfold first_pos. destruct (bl b) as [v|]; cbn [side_nz side_in_parts];
    [|left; split; [exact I | reflexivity]].
  intros Hv. rewrite resolve_left_index. pose proof (in_parts_test v n Hn Hv) as T.
  destruct ((n <? v) || (v <? - n)); [right | left]; (split; [|reflexivity]).
  - intros P. apply T in P. discriminate.
  - apply T. reflexivity.
Qed.

Lemma resolve_right_cases b n : 0 <= n -> side_nz (br b) ->
  side_in_parts (br b) n /\ resolve_right (br b) n = Some (last_pos b n)
  \/ ~ side_in_parts (br b) n /\ resolve_right (br b) n = None.
Proof.
  intros Hn. unfold last_pos. destruct (br b) as [v|]; cbn [side_nz side_in_parts];
    [|left; split; [exact I | reflexivity]].
  intros Hv. rewrite resolve_right_index. pose proof (in_parts_test v n Hn Hv) as T.
  destruct ((n <? v) || (v <? - n)); [right | left]; (split; [|reflexivity]).
  - intros P. apply T in P. discriminate.
  - apply T. reflexivity.
Qed.

Lemma side_in_parts_nz s n : side_in_parts s n -> side_nz s.
Proof. destruct s as [v|]; [|exact (fun _ => I)]. cbn. unfold in_parts. lia. Qed.

Lemma resolves_nz b n : resolves b n -> bound_nz b.
Proof. intros [L [R _]]. split; eapply side_in_parts_nz; eassumption. Qed.

Lemma resolves_positions b n :
  resolves b n ->
  1 <= first_pos b (Z.of_nat n) <= last_pos b (Z.of_nat n) /\ last_pos b (Z.of_nat n) <= Z.of_nat n.
Proof.
  intros [L [R H]]. unfold first_pos, last_pos in *.
  destruct (bl b); destruct (br b); cbn in L, R;
    try apply in_parts_pos in L; try apply in_parts_pos in R; lia.
Qed.

Theorem try_into_range_cases b n : bound_nz b ->
  resolves b n
  /\ try_into_range b n
     = Some (Z.to_nat (first_pos b (Z.of_nat n) - 1), Z.to_nat (last_pos b (Z.of_nat n)))
  \/ ~ resolves b n /\ try_into_range b n = None.
Proof.
  intros [Hl Hr]. unfold try_into_range, resolves. pose proof (Nat2Z.is_nonneg n) as Hn.
  destruct (resolve_left_cases b _ Hn Hl) as [[L ->]|[L ->]]; [|right; split; [tauto | reflexivity]].
  destruct (resolve_right_cases b _ Hn Hr) as [[R ->]|[R ->]]; [|right; split; [tauto | reflexivity]].
  destruct (Z.leb_spec (last_pos b (Z.of_nat n)) (first_pos b (Z.of_nat n) - 1));
    [right | left]; (split; [|reflexivity]).
  - lia.
  - repeat split; [exact L | exact R | lia].
Qed.

Theorem try_into_range_resolved b n :
  resolves b n ->
  try_into_range b n
  = Some (Z.to_nat (first_pos b (Z.of_nat n) - 1), Z.to_nat (last_pos b (Z.of_nat n))).
Proof.
  intros R. destruct (try_into_range_cases b n (resolves_nz b n R)) as [[_ E]|[N _]];
    [exact E | contradiction].
Qed.

Theorem try_into_range_some b n s e :
  bound_nz b -> try_into_range b n = Some (s, e) ->
  resolves b n
  /\ Z.of_nat s = first_pos b (Z.of_nat n) - 1
  /\ Z.of_nat e = last_pos b (Z.of_nat n)
  /\ (s < e <= n)%nat.
Proof.
  intros Hnz H. destruct (try_into_range_cases b n Hnz) as [[R E]|[_ E]]; rewrite E in H;
    [|discriminate].
  injection H as <- <-. pose proof (resolves_positions b n R). split; [exact R | lia].
Qed.

Theorem try_into_range_none b n :
  try_into_range b n = None -> ~ resolves b n.
Proof. intros E R. rewrite (try_into_range_resolved b n R) in E. discriminate. Qed.

Theorem try_into_range_none_iff b n : bound_nz b -> (try_into_range b n = None <-> ~ resolves b n).
Proof.
  intros Hnz. split; [apply try_into_range_none|]. intros N.
  destruct (try_into_range_cases b n Hnz) as [[R _]|[_ E]]; [contradiction | exact E].
Qed.

Lemma try_into_range_ext b b' n : bl b = bl b' -> br b = br b' -> try_into_range b n = try_into_range b' n.
Proof. unfold try_into_range. intros -> ->. reflexivity. Qed.

Lemma try_into_range_bounds b n s e :
  bl b <> SSome 0 -> try_into_range b n = Some (s, e) -> (s < e <= n)%nat.
Proof.
  intros Hz. unfold try_into_range.
  destruct (resolve_left (bl b) (Z.of_nat n)) as [s0|] eqn:EL; [|discriminate].
  destruct (resolve_right (br b) (Z.of_nat n)) as [e0|] eqn:ER; [|discriminate].
  destruct (Z.leb_spec e0 s0) as [|Hlt]; [discriminate|]. intros E; injection E as <- <-.
  assert (0 <= s0).
  { destruct (bl b) as [v|]; [|injection EL as <-; lia]. rewrite resolve_left_index in EL.
    destruct ((Z.of_nat n <? v) || (v <? - Z.of_nat n)) eqn:T; [discriminate|]. injection EL as <-.
    assert (Hv : v <> 0) by congruence. apply (in_parts_test v _ (Nat2Z.is_nonneg n) Hv), in_parts_pos in T. lia. }
  assert (e0 <= Z.of_nat n).
  { destruct (br b) as [v|]; [|injection ER as <-; lia]. rewrite resolve_right_index in ER.
    destruct ((Z.of_nat n <? v) || (v <? - Z.of_nat n)) eqn:T; [discriminate|]. injection ER as <-.
    apply orb_false_iff in T. destruct T as [T1 T2]. apply Z.ltb_ge in T1, T2. unfold pos_of.
    destruct (Z.ltb_spec v 0); lia. }
  lia.
Qed.

Lemma try_into_range_index v la fb n : in_parts v (Z.of_nat n) ->
  try_into_range (mkB (SSome v) (SSome v) la fb) n
  = Some (Z.to_nat (pos_of v (Z.of_nat n) - 1), Z.to_nat (pos_of v (Z.of_nat n))).
Proof. intros H. apply try_into_range_resolved. split; [exact H | split; [exact H | cbn; lia]]. Qed.

Lemma try_into_range_pos b l r n : bl b = SSome l -> br b = SSome r -> 0 < l -> 0 < r ->
  try_into_range b n
  = if (l <=? Z.of_nat n) && (r <=? Z.of_nat n) && (l <=? r)
    then Some (Z.to_nat (l - 1), Z.to_nat r) else None.
Proof.
  intros El Er Hl Hr. pose proof (Nat2Z.is_nonneg n) as Hn. unfold try_into_range.
  rewrite El, Er, resolve_left_index, resolve_right_index, !range_test_pos, !pos_of_pos by assumption.
  destruct (l <=? Z.of_nat n); [|reflexivity]. destruct (r <=? Z.of_nat n); [|reflexivity]. cbn [negb andb].
  (* the code rejects r <= l - 1, the statement asks for l <= r *)
  destruct (Z.leb_spec r (l - 1)); destruct (Z.leb_spec l r); try lia; reflexivity.
Qed.

Lemma of_range_nz a z : (a < z)%nat -> bound_nz (of_range a z).
Proof. intros H. split; cbn; lia. Qed.

Lemma singles_nz s c : Forall bound_nz (singles_from s c).
Proof.
  revert s; induction c as [|c IH]; intros s; cbn [singles_from]; constructor; [|apply IH].
  split; cbn; lia.
Qed.

Lemma unpack_bound_nz b n : bound_nz b -> Forall bound_nz (unpack_bound b n) /\ unpack_bound b n <> [].
Proof.
  intros Hnz. unfold unpack_bound. destruct (try_into_range b n) as [[s e]|] eqn:E.
  - pose proof (try_into_range_some b n s e Hnz E) as [_ [_ [_ Hse]]]. split; [apply singles_nz|].
    destruct (e - s)%nat eqn:Ek; [lia | discriminate].
  - split; [constructor; [exact Hnz | constructor] | discriminate].
Qed.

Lemma complement_bound_nz b n cs : bound_nz b -> complement_bound b n = Some cs -> Forall bound_nz cs.
Proof.
  intros Hnz. unfold complement_bound. destruct (try_into_range b n) as [[s e]|] eqn:E; [|discriminate].
  pose proof (try_into_range_some b n s e Hnz E) as [_ [_ [_ Hse]]].
  intros H; injection H as <-. apply Forall_map. unfold complement_std_range.
  destruct s; destruct (Nat.eqb_spec e n); repeat constructor; apply of_range_nz; cbn; lia.
Qed.

Definition same_but_last (x y : bof) : Prop :=
  match x, y with
  | Bound a, Bound b => bl b = bl a /\ br b = br a /\ bfb b = bfb a
  | Filler f, Filler g => g = f
  | _, _ => False
  end.

Lemma same_but_last_refl x : same_but_last x x.
Proof. destruct x; cbn; auto. Qed.

Lemma mark_last_same l : Forall2 same_but_last l (mark_last l).
Proof.
  induction l as [|[b|f] l IH]; cbn [mark_last]; [constructor | |constructor; [reflexivity | exact IH]].
  destruct (bounds_only l); constructor; cbn; auto. apply Forall2_diag, same_but_last_refl.
Qed.

Lemma bounds_only_mark_last_len l : length (bounds_only (mark_last l)) = length (bounds_only l).
Proof.
  induction (mark_last_same l) as [|[a|f] [b|g] l l' H _ IH]; try contradiction; [reflexivity | |exact IH].
  cbn. f_equal. exact IH.
Qed.

Lemma bounds_only_map_Bound bs : bounds_only (map Bound bs) = bs.
Proof. induction bs as [|b bs IH]; [reflexivity|]. cbn. f_equal. exact IH. Qed.

Lemma bounds_only_in l b : In b (bounds_only l) <-> In (Bound b) l.
Proof.
  induction l as [|x l IH]; [split; intros []|]. destruct x as [b'|f]; cbn [bounds_only flat_map app In].
  - rewrite IH. split; (intros [H|H]; [left; congruence | right; exact H]).
  - rewrite IH. split; [intros H; right; exact H | intros [H|H]; [discriminate | exact H]].
Qed.

Lemma from_vec_items l u : from_vec l = Some u ->
  items u = mark_last l /\ bounds_only l <> [].
Proof.
  unfold from_vec. destruct (bounds_only l) eqn:E; [discriminate|]. intros H; injection H as <-.
  split; [reflexivity | discriminate].
Qed.

Lemma from_vec_some l : bounds_only l <> [] -> exists u, from_vec l = Some u.
Proof. unfold from_vec. destruct (bounds_only l); [contradiction | eauto]. Qed.

Lemma complement_list_items l n u :
  complement_list l n = Some u -> items u = mark_last (complement_items l n).
Proof.
  unfold complement_list. destruct (bounds_only (complement_items l n)); [discriminate|].
  intros H. apply from_vec_items, H.
Qed.
