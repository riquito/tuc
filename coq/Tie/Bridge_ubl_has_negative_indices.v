(** [UserBoundsList::has_negative_indices], as translated, is the model's. *)
From TucModel Require Import Base.Bytes Model.Bounds Tie.RsPrelude Tie.TieBase Tie.RsFacts
  Tie.Bridge_ubl_bounds_only Tie.Gen_ubl_has_negative_indices.
Import ListNotations.
Local Open Scope Z_scope.

Lemma tie_ubl_has_negative_indices : forall u : ublist,
  gen_ubl_has_negative_indices u = Ret (has_negative_indices (items u)).
Proof.
  intros u. cbv beta delta [gen_ubl_has_negative_indices] iota zeta. rewrite tie_ubl_bounds_only. cbn [bind].
  unfold to_list, iter_list, has_negative_indices.
  match goal with |- context [anyM ?F _] => rewrite (anyM_spec F (fun b => side_neg (bl b) || side_neg (br b))) end; [reflexivity|].
  intros [[l|] [r|] la fb]; unfold side_neg; cbn [bl br]; case_bools; reflexivity.
Qed.
