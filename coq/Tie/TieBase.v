(** Vocabulary and tactics shared by the bridge lemmas.  The tactics follow no particular shape of the
    Rust function: unfold both sides, decide the comparisons, let [lia] finish. *)
From Coq Require Import ZArith Bool List Lia.
From TucModel Require Import Tie.RsPrelude.
Import ListNotations.
Local Open Scope Z_scope.

(* keep integer arithmetic folded: [cbn] must reduce the control structure only, so that [lia] still
   recognises the terms *)
Global Arguments Z.add : simpl never.
Global Arguments Z.sub : simpl never.
Global Arguments Z.opp : simpl never.
Global Arguments Z.mul : simpl never.
Global Arguments Z.ltb : simpl never.
Global Arguments Z.leb : simpl never.
Global Arguments Z.eqb : simpl never.
Global Arguments Z.compare : simpl never.
Global Arguments Z.of_nat : simpl never.
Global Arguments Z.to_nat : simpl never.
Global Arguments Z.modulo : simpl never.
Global Arguments Z.succ : simpl never.

Ltac case_bools :=
  repeat match goal with
  | |- context [Z.ltb ?a ?b] => destruct (Z.ltb_spec a b)
  | |- context [Z.leb ?a ?b] => destruct (Z.leb_spec a b)
  | |- context [Z.eqb ?a ?b] => destruct (Z.eqb_spec a b)
  | |- context [Z.compare ?a ?b] => destruct (Z.compare_spec a b)
  | |- context [Nat.eqb ?a ?b] => destruct (Nat.eqb_spec a b)
  end.

(** [case_if] decides, in the condition of an [if], the test that [andb]/[orb] look at first and reduces
    the boolean structure: a test that cannot change the branch is never split on.  ([case_bools] splits on
    every comparison of the goal, whichever branch it sits in.) *)
Ltac decide_first c :=
  lazymatch c with
  | andb ?x _ => decide_first x
  | orb ?x _ => decide_first x
  | xorb ?x _ => decide_first x
  | negb ?x => decide_first x
  | context [if ?x then _ else _] => decide_first x  (* also a test inside the operands of a comparison *)
  | Z.ltb ?a ?b => destruct (Z.ltb_spec a b)
  | Z.leb ?a ?b => destruct (Z.leb_spec a b)
  | Z.eqb ?a ?b => destruct (Z.eqb_spec a b)
  | Nat.eqb ?a ?b => destruct (Nat.eqb_spec a b)
  | _ => tryif is_var c then destruct c else destruct c eqn:?
  end.
Ltac case_if :=
  match goal with |- context [if ?c then _ else _] => decide_first c end; cbn [andb orb negb xorb].

(** A comparison that the head constructors of its arguments decide ([0 <? Z.pos p], [Z.neg p <=? Z.pos q])
    is replaced by its value: after [destruct x as [|p|p]] every test of a sign goes this way. *)
Ltac eval_test t :=
  let v := eval cbv in t in
  lazymatch v with
  | true => change t with true
  | false => change t with false
  | Lt => change t with Lt
  | Eq => change t with Eq
  | Gt => change t with Gt
  end.
Ltac sign_tests :=
  repeat match goal with
         | |- context [Z.ltb ?a ?b] => eval_test (Z.ltb a b)
         | |- context [Z.leb ?a ?b] => eval_test (Z.leb a b)
         | |- context [Z.eqb ?a ?b] => eval_test (Z.eqb a b)
         | |- context [Z.compare ?a ?b] => eval_test (Z.compare a b)
         end;
  cbn [andb orb negb xorb].

(** closes an equation between results once every comparison has been split: the same value up to
    arithmetic, or contradictory hypotheses *)
Ltac rs_finish :=
  first [ reflexivity
        | exfalso; unfold i32_max, i32_min in *; lia
        | repeat (f_equal; try (unfold i32_max, i32_min in *; lia)); fail ].

(** images of the model's values in the translated code's types *)
Definition range_Z (r : option (nat * nat)) : option (Z * Z) :=
  match r with Some (s, e) => Some (Z.of_nat s, Z.of_nat e) | None => None end.
Definition pairs_Z (l : list (nat * nat)) : list (Z * Z) := map (fun p => (Z.of_nat (fst p), Z.of_nat (snd p))) l.
Definition ord_gt (c : option comparison) : bool := match c with Some Gt => true | _ => false end.
Definition ord_le (c : option comparison) : bool := match c with Some Lt | Some Eq => true | _ => false end.

(** boolean equalities and a grid of arguments for the counterexample search of [Search_*.v]: small values
    around every sign change, and the magnitudes where i32 arithmetic overflows (46341 is the least integer
    whose square exceeds 2^31 - 1) *)
Definition eq_rs {A} (eqA : A -> A -> bool) (x y : rs A) : bool :=
  match x, y with Ret a, Ret b => eqA a b | Panic, Panic => true | _, _ => false end.
Definition eq_opt {A} (eqA : A -> A -> bool) (x y : option A) : bool :=
  match x, y with Some a, Some b => eqA a b | None, None => true | _, _ => false end.
Definition eq_zz (x y : Z * Z) : bool := Z.eqb (fst x) (fst y) && Z.eqb (snd x) (snd y).
Fixpoint eq_list {A} (eqA : A -> A -> bool) (x y : list A) : bool :=
  match x, y with [] , [] => true | a :: x', b :: y' => eqA a b && eq_list eqA x' y' | _, _ => false end.
Definition eq_cmp (x y : comparison) : bool :=
  match x, y with Lt, Lt | Eq, Eq | Gt, Gt => true | _, _ => false end.

Definition grid_idx : list Z :=
  [-2147483648; -2147483647; -65537; -65536; -46341; -4; -3; -2; -1; 0; 1; 2; 3; 4; 46341; 65536; 65537; 2147483646; 2147483647].
Definition grid_n : list nat := [0; 1; 2; 3; 4; 5]%nat.
