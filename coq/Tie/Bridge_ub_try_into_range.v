(** [UserBounds::try_into_range], as translated, returns the model's [try_into_range] on at most 2^31 - 1
    parts: `parts_length as i32` keeps the value, and no i32 addition, subtraction or negation overflows.
    The left side must not be the index 0, which [UserBounds::from_str] rejects: with it `v - 1` is -1 and
    wraps in `start as usize`. *)
From TucModel Require Import Base.Bytes Model.Bounds Tie.RsPrelude Tie.TieBase Tie.RsFacts Tie.Gen_ub_try_into_range.
Local Open Scope Z_scope.

Lemma tie_ub_try_into_range : forall (b : ubound) (n : nat),
  Z.of_nat n <= i32_max -> bl b <> SSome 0 ->
  gen_ub_try_into_range b (Z.of_nat n) = Ret (range_Z (try_into_range b n)).
Proof.
  intros [[l|] [r|] la fb] n Hn Hz; cbn [bl] in Hz.
  all: try (assert (l <> 0) by (intros ->; apply Hz; reflexivity)).
  all: cbv beta delta [gen_ub_try_into_range] iota zeta; unfold try_into_range, resolve_left, resolve_right; cbn [bl br].
  all: rewrite cast_i32_small by lia; unfold i32_neg, i32_add, i32_sub.
  all: repeat (first [rewrite i32_chk_ok by (unfold i32_min, i32_max in *; lia) | case_if]; cbn [bind]).
  all: cbn; unfold range_Z; rewrite ?cast_usize_small by (unfold i32_max, usize_max in *; lia); rewrite ?Z2Nat.id by lia.
  all: rs_finish.
Qed.
