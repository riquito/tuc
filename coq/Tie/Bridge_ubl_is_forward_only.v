(** [UserBoundsList::is_forward_only], as translated, is the model's. *)
From TucModel Require Import Base.Bytes Model.Bounds Tie.RsPrelude
  Tie.Bridge_ubl_is_sortable Tie.Bridge_ubl_is_sorted Tie.Bridge_ubl_has_negative_indices Tie.Gen_ubl_is_forward_only.
Local Open Scope Z_scope.

Lemma tie_ubl_is_forward_only : forall u : ublist,
  gen_ubl_is_forward_only u = Ret (is_forward_only (items u)).
Proof.
  intros u. cbv beta delta [gen_ubl_is_forward_only] iota zeta.
  rewrite tie_ubl_is_sortable. cbn [bind]. unfold is_forward_only.
  destruct (is_sortable (items u)); cbn [andb]; [|reflexivity].
  rewrite tie_ubl_is_sorted. cbn [bind].
  destruct (is_sorted (items u)); cbn [andb]; [|reflexivity].
  rewrite tie_ubl_has_negative_indices. reflexivity.
Qed.
