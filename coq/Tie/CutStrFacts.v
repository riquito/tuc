(** Facts about the model: the single-part bounds of a range by position; trimming does not lengthen a
    record; the gaps between matches, all but the last and where the last starts. *)
From TucModel Require Import Base.Bytes Model.Bounds Model.Scan.
Import ListNotations.
Local Open Scope Z_scope.

Lemma singles_from_seq : forall c s, singles_from s c = map (fun k => single (Z.of_nat s + 1 + Z.of_nat k)) (seq 0 c).
Proof.
  induction c as [|c IH]; intros s; [reflexivity|]. cbn [singles_from seq map]. f_equal; [f_equal; lia|].
  rewrite <- seq_shift, map_map, IH. apply map_ext. intros k. f_equal. lia.
Qed.

Lemma strip_prefix_length : forall (p l r : bytes), strip_prefix p l = Some r -> (length r <= length l)%nat.
Proof.
  induction p as [|x p IH]; intros l r E; cbn [strip_prefix] in E; [injection E as <-; lia|].
  destruct l as [|y l]; [discriminate|]. destruct (N.eqb x y); [|discriminate]. apply IH in E. cbn [length]. lia.
Qed.

Lemma trim_left_length (p l : bytes) : (length (trim_left p l) <= length l)%nat.
Proof.
  unfold trim_left. destruct p as [|x p]; [lia|]. generalize (length l) at 1 as fuel. intros fuel. revert l.
  induction fuel as [|fuel IH]; intros l; cbn [trim_left_fuel]; [lia|].
  destruct (strip_prefix (x :: p) l) as [r|] eqn:E; [|lia]. specialize (IH r). apply strip_prefix_length in E. lia.
Qed.

Lemma trim_right_length (p l : bytes) : (length (trim_right p l) <= length l)%nat.
Proof. unfold trim_right. rewrite rev_length, <- (rev_length l). apply trim_left_length. Qed.

Lemma trim_lit_le k p l : (length (trim_lit k p l) <= length l)%nat.
Proof.
  destruct k; cbn [trim_lit]; [apply trim_left_length | apply trim_right_length |].
  etransitivity; [apply trim_right_length | apply trim_left_length].
Qed.

Fixpoint gaps_init (start : nat) (ms : list mtch) : list mtch :=
  match ms with [] => [] | m :: ms' => (start, fst m) :: gaps_init (snd m) ms' end.
Fixpoint gaps_last (start : nat) (ms : list mtch) : nat :=
  match ms with [] => start | m :: ms' => gaps_last (snd m) ms' end.

Lemma gaps_from_split len : forall ms start,
  gaps_from start ms len = gaps_init start ms ++ [(gaps_last start ms, len)].
Proof. induction ms as [|m ms IH]; intros start; cbn [gaps_from gaps_init gaps_last app]; [reflexivity|]. rewrite IH. reflexivity. Qed.
