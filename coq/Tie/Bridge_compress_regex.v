(** [compress_delimiter_with_regex] (src/cut_str.rs), as translated: the matches of the regex it is given,
    taken from the model ([rx_matches], hybrid), are replaced by the new delimiter, literally. *)
From TucModel Require Import Base.Bytes Model.Scan Model.Opt
  Tie.RsPrelude Tie.RsRegex Tie.Gen_compress_regex.
Import ListNotations.

Theorem tie_compress_regex : forall (line nd : bytes) (r : rx * bool) (ms : list mtch),
  rx_matches r line = Some ms -> gen_compress_regex line r nd = Ret (replace_matches line ms nd).
Proof.
  intros line nd r ms Hm. cbv beta delta [gen_compress_regex] iota zeta. unfold rx_replace_all. rewrite Hm. reflexivity.
Qed.
