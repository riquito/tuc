(** [trim_regex] (src/cut_str.rs), as translated, returns the model's [trim_matches] on the matches of the
    regex, these taken from the model ([rx_matches], hybrid) and assumed sorted and inside the record
    ([wf_ms]): then `&line[idx_start..idx_end]` is in range. *)
From TucModel Require Import Base.Bytes Model.Scan Model.Opt Proofs.C12
  Tie.RsPrelude Tie.TieBase Tie.RsRegex Tie.RsFacts Tie.Gen_trim_regex.
Import ListNotations.
Local Open Scope Z_scope.

Lemma wf_ms_last : forall (ms : list mtch) (s len : nat), wf_ms s ms len ->
  match hd_error (rev ms) with
  | Some m => (s <= fst m /\ fst m <= snd m /\ snd m <= len)%nat
  | None => (s <= len)%nat
  end.
Proof.
  induction ms as [|m0 ms IH]; intros s len Hwf; [exact Hwf|].
  destruct Hwf as (H1 & H2 & H3). specialize (IH _ _ H3). cbn [rev].
  destruct (rev ms) as [|y ys]; cbn [app hd_error] in *; lia.
Qed.

Lemma last_error_map {A B} (f : A -> B) (l : list A) :
  last_error (map f l) = match hd_error (rev l) with Some x => Some (f x) | None => None end.
Proof. unfold last_error. rewrite <- map_rev. destruct (rev l); reflexivity. Qed.

Theorem tie_trim_regex : forall (line : bytes) (k : trimk) (r : rx * bool) (ms : list mtch),
  rx_matches r line = Some ms -> wf_ms 0%nat ms (length line) ->
  gen_trim_regex line k r = Ret (trim_matches k ms line).
Proof.
  intros line k r ms Hm Hwf. cbv beta delta [gen_trim_regex] iota zeta.
  unfold rx_find_iter_z, trim_matches. rewrite Hm. clear Hm.
  change 0 with (Z.of_nat 0).
  destruct ms as [|m ms'].
  - cbn [map hd_error tl rev]. unfold last_error. cbn [rev hd_error].
    destruct k; cbn [trimk_eqb orb]; rewrite ?str_between_ok by lia; reflexivity.
  - (* where the last match lies: of all of them, and of those after the first *)
    pose proof (wf_ms_last _ _ _ Hwf) as La. destruct Hwf as (W1 & W2 & W3). pose proof (wf_ms_last _ _ _ W3) as Lr.
    unfold mtch in *.
    cbn [map hd_error tl]. change (mzz m :: map mzz ms') with (map mzz (m :: ms')).
    rewrite ?last_error_map. cbn [mzz fst snd]. rewrite ?Z_of_nat_eqb.
    destruct k; cbn [trimk_eqb orb]; repeat case_if.
    all: revert La Lr; cbn [rev]; destruct (rev ms') as [|y ys]; cbn [app hd_error mzz fst snd]; intros La Lr.
    all: rewrite ?Z_of_nat_eqb; repeat case_if; first [rewrite str_between_ok by lia; reflexivity | exfalso; lia].
Qed.
