(** [UserBounds::partial_cmp], as translated, decides the model's [bound_le] (the [prev <= b] test
    of [is_sorted]) and never panics. *)
From TucModel Require Import Base.Bytes Model.Bounds Tie.RsPrelude Tie.TieBase
  Tie.Gen_side_partial_cmp Tie.Bridge_side_partial_cmp Tie.Gen_ub_partial_cmp.
Local Open Scope Z_scope.

Lemma tie_ub_partial_cmp : forall a b : ubound,
  exists c, gen_ub_partial_cmp a b = Ret c /\ bound_le a b = ord_le c.
Proof.
  intros a b. cbv beta delta [gen_ub_partial_cmp] iota zeta. unfold bound_le.
  destruct (bl b) as [v|];
    match goal with |- context [gen_side_partial_cmp ?x ?y] =>
      destruct (tie_side_partial_cmp x y) as (c & E & _ & Hle); rewrite E; cbn [bind];
      exists c; split; [reflexivity | exact Hle] end.
Qed.
