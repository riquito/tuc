(** [output_parts] (src/fast_lane.rs), as translated with its writes accumulated, is [fast_piece]: the
    same bytes, failure when an unresolvable bound has no fallback, and a panic where [fast_piece] is
    [RPanic] - an index past the table of field starts, `fields[r.end] - 1` below zero, a slice out of
    order or past the line.  [fields <> []] is for `fields.len() - 1`; the next two hypotheses are those
    of [tie_ub_try_into_range]; the last keeps `fields[r.end]` within usize. *)
From TucModel Require Import Base.Bytes Model.Bounds Model.CutBytes
  Tie.RsPrelude Tie.TieBase Tie.RsOpt Tie.RsFacts
  Tie.Bridge_ub_try_into_range Tie.Gen_fast_output_parts.
Import ListNotations.
Local Open Scope Z_scope.

(** one bound of [fast_out], with the separator that follows it *)
Definition fast_piece (join : bool) (generic : option bytes) (d : byte) (line : bytes) (fields : list nat) (b : ubound) : rres :=
  match (match try_into_range b (length fields - 1) with
         | Some (s, e) =>
             match nth_error fields s, nth_error fields e with
             | Some a, Some z =>
                 if Nat.leb 1 z && Nat.leb a (z - 1) && Nat.leb (z - 1) (length line)
                 then ROk (slice line a (z - 1)) else RPanic
             | _, _ => RPanic
             end
         | None => match fallback_for b generic with Some f => ROk f | None => RErr end
         end) with
  | ROk p => ROk (p ++ (if join && negb (blast b) then [d] else []))
  | e => e
  end.

Definition of_rres (r : rres) : rs (option unit * bytes) :=
  match r with
  | ROk out => Ret (Some tt, out)
  | RErr => Ret (None, [])
  | _ => Panic
  end.

Lemma tie_fast_output_parts : forall (line : bytes) (b : ubound) (fields : list nat) (g : gfopt),
  fields <> [] -> Z.of_nat (length fields) <= i32_max -> bl b <> SSome 0 ->
  Z.of_nat (length line) < usize_max ->
  gen_fast_output_parts line b (map Z.of_nat fields) g
  = of_rres (fast_piece (gf_join g) (gf_fallback g) (gf_delim g) line fields b).
Proof.
  intros line b fields g Hne Hlen Hz Hline. cbv beta iota zeta delta [gen_fast_output_parts].
  assert (Hpos : (0 < length fields)%nat) by (destruct fields; [contradiction | cbn; lia]).
  rewrite map_length, usize_sub_ok by (unfold usize_max, i32_max in *; lia). cbn [bind].
  replace (Z.of_nat (length fields) - 1) with (Z.of_nat (length fields - 1)) by lia.
  rewrite (tie_ub_try_into_range b (length fields - 1)) by (try exact Hz; lia). cbn [bind]. unfold fast_piece.
  destruct (try_into_range b (length fields - 1)) as [[s e]|]; cbn [range_Z opt_unwrap bind fst snd].
  - rewrite !vec_index_nat, !nth_error_map.
    destruct (nth_error fields s) as [a|]; cbn [option_map bind]; [|reflexivity].
    destruct (nth_error fields e) as [z|]; cbn [option_map bind]; [|reflexivity].
    destruct z as [|z']; [reflexivity|]. replace (S z' - 1)%nat with z' by lia. cbn [Nat.leb andb].
    destruct (z' <=? length line)%nat eqn:Hz'.
    + apply Nat.leb_le in Hz' as Hle. rewrite usize_sub_ok by lia. cbn [bind].
      replace (Z.of_nat (S z') - 1) with (Z.of_nat z') by lia. rewrite str_between_nat, Hz', andb_true_r.
      destruct (a <=? z')%nat; cbn [bind of_rres]; [|reflexivity].
      destruct (gf_join g), (blast b); cbn [andb negb app]; rewrite ?app_nil_r; reflexivity.
    + (* a field start past the end of the line: the subtraction or the slicing panics, as the model does *)
      rewrite andb_false_r. unfold usize_sub, usize_chk. destruct (in_usize (Z.of_nat (S z') - 1)); [|reflexivity]. cbn [bind].
      replace (Z.of_nat (S z') - 1) with (Z.of_nat z') by lia. rewrite str_between_nat, Hz', andb_false_r. reflexivity.
  - unfold fallback_for. destruct (bfb b) as [f|]; [|destruct (gf_fallback g) as [f|]; [|reflexivity]];
      cbn [bind opt_unwrap of_rres]; destruct (gf_join g), (blast b); cbn [andb negb app]; rewrite ?app_nil_r; reflexivity.
Qed.
