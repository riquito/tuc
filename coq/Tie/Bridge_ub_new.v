(** [UserBounds::new], as translated. *)
From TucModel Require Import Base.Bytes Model.Bounds Tie.RsPrelude Tie.Gen_ub_new.
Local Open Scope Z_scope.

Lemma tie_ub_new : forall l r : side, gen_ub_new l r = Ret (mkB l r false None).
Proof. intros l r. reflexivity. Qed.
