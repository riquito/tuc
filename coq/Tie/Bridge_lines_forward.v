(** src/cut_lines.rs : cut_lines_forward_only (the one-line-at-a-time algorithm of -l), translated stage by
    stage, against the model's [fwd_lines].  What happens once the input is exhausted or every bound has been
    used is [fwd_finish] / [fwd_tail]: a pending bound that has printed lines is complete only if it is open on
    the right, every other pending bound prints its own fallback, else the generic one, else the run fails.
    The main loop ([gen_lines_forward_s4]: `while let Some(line) = read_line_with_eol(..)`, the hybrid
    [read_line_eol], with the inner `while` over the bounds) is one line against [fwd_bounds] and the lines
    one by one against [records]. *)
From TucModel Require Import Base.Bytes Base.ListX Model.Bounds Model.Utf8 Model.Opt Model.CutBytes Model.CutStr
  Model.CutLines Proofs.Utf8Snoc Tie.RsPrelude Tie.TieBase Tie.RsOpt Tie.RsLines Tie.LinesFacts Tie.RsFacts
  Tie.Bridge_ub_matches Tie.Gen_lines_forward.
Import ListNotations.
Local Open Scope Z_scope.

Section Tail.
  Variable o : opt.
  Notation its := (items (o_bounds o)).
  Notation n := (length (items (o_bounds o))).

  Definition item_out (x : bof) : option bytes :=
    match x with Filler f => Some f | Bound b => fallback_for b (o_fallback o) end.
  (** the EOL after the item before index i, as the code decides it *)
  Definition sep_after (i : nat) : bytes := if o_join o && negb (Z.of_nat i =? Z.of_nat n) then [o_eol o] else [].

  (** the model decides it by what is left of the list *)
  Lemma sep_after_next (i : nat) (x : bof) : nth_error its i = Some x ->
    sep_after (S i) = if o_join o && nonempty (skipn (S i) its) then [o_eol o] else [].
  Proof.
    intros En. assert (Hi : (i < n)%nat) by (apply nth_error_Some; rewrite En; discriminate).
    unfold sep_after. rewrite Z_of_nat_eqb. f_equal. f_equal.
    destruct (Nat.eqb_spec (S i) n) as [->|E]; [rewrite skipn_all; reflexivity|].
    destruct (skipn (S i) its) eqn:E2; [|reflexivity].
    apply (f_equal (@length _)) in E2. rewrite skipn_length in E2. cbn [length] in E2. lia.
  Qed.

  Lemma fwd_tail_step : forall l x,
    fwd_tail o (x :: l) = match item_out x with
                          | Some t => match fwd_tail o l with
                                      | Some r => Some (t ++ (if o_join o && nonempty l then [o_eol o] else []) ++ r)
                                      | None => None end
                          | None => None end.
  Proof. intros l [b|f]; cbn [fwd_tail item_out]; [destruct (fallback_for b (o_fallback o))|]; reflexivity. Qed.

  Lemma tail_loop {St} (st : bytes -> nat -> St) (cond : St -> rs bool) (body : St -> rs (ctrl St (option unit))) :
    (forall out i, cond (st out i) = Ret (Z.of_nat i <? Z.of_nat n)) ->
    (forall out i x, nth_error its i = Some x ->
       body (st out i) = match item_out x with
                         | Some t => Ret (Next (st (out ++ t ++ sep_after (S i)) (S i)))
                         | None => Ret (Break None)
                         end) ->
    forall fuel i, (i <= n)%nat -> (n - i < fuel)%nat -> forall out,
      whileM fuel cond body (st out i)
      = match fwd_tail o (skipn i its) with
        | Some r => Ret (Next (st (out ++ r) n))
        | None => Ret (Break None)
        end.
  Proof.
    intros Hc Hb. induction fuel as [|fuel IH]; intros i Hi Hf out; [lia|]. cbn [whileM]. rewrite Hc, Z_of_nat_ltb. cbn [bind].
    destruct (Nat.ltb_spec i n).
    - destruct (nth_error its i) as [x|] eqn:En; [|apply nth_error_None in En; lia].
      rewrite (Hb out i x En), (skipn_nth_cons _ _ _ En), fwd_tail_step. destruct (item_out x) as [t|]; cbn [bind]; [|reflexivity].
      rewrite (IH (S i)), (sep_after_next i x En) by lia.
      destruct (fwd_tail o (skipn (S i) its)); [rewrite <- !app_assoc|]; reflexivity.
    - replace i with n by lia. rewrite skipn_all. cbn [fwd_tail]. rewrite app_nil_r. reflexivity.
  Qed.
End Tail.

(** the final while loop and the final EOL *)
Lemma s6_spec (o : opt) (sin out lb : bytes) (li : Z) (i : nat) (an : bool) :
  (i <= length (items (o_bounds o)))%nat -> Z.of_nat (length (items (o_bounds o))) + 1 <= usize_max ->
  match fwd_tail o (skipn i (items (o_bounds o))) with
  | Some r => gen_lines_forward_s6 sin out o lb li (Z.of_nat i) an = Ret (Some tt, out ++ r ++ [o_eol o])
  | None => exists p, gen_lines_forward_s6 sin out o lb li (Z.of_nat i) an = Ret (None, p)
  end.
Proof.
  intros Hi Hn. remember (gen_lines_forward_s6 sin out o lb li (Z.of_nat i) an) as g eqn:Eg.
  cbv beta iota zeta delta [gen_lines_forward_s6 gen_lines_forward_s7 gen_lines_forward_s8] in Eg.
  (* the type of the loops' state by name: written out, it stands at every [Ret], [Next] and [bind] of a step *)
  set (S6 := (bytes * bytes * bytes * Z * Z * bool)%type) in Eg.
  match type of Eg with context [whileM _ ?c ?b _] => set (cond := c) in Eg; set (body := b) in Eg end.
  pose proof (tail_loop o (fun out i => (sin, out, lb, li, Z.of_nat i, an) : S6) cond body) as L. cbv beta in L.
  rewrite L in Eg; try lia; clear L.
  - rewrite Eg. destruct (fwd_tail o (skipn i (items (o_bounds o)))) as [r|]; cbn [bind]; [rewrite <- app_assoc; reflexivity | eexists; reflexivity].
  - intros; reflexivity.
  - clear Eg. intros out' j x En. unfold body. clear cond body. rewrite Nat2Z.id, En. cbn [opt_unwrap bind].
    assert (Hj : (j < length (items (o_bounds o)))%nat) by (apply nth_error_Some; rewrite En; discriminate).
    unfold sep_after, item_out, fallback_for.
    (* which text the item prints; then every branch moves on and adds the EOL under the same two tests *)
    rewrite ?(usize_add_nat j) by lia. cbn [bind].
    destruct x as [b|f]; [destruct (bfb b) as [t|]; [|destruct (o_fallback o) as [t|]; [|reflexivity]]|];
      repeat case_if; cbn [app]; rewrite <- ?app_assoc, ?app_nil_r; reflexivity.
Qed.

(** what follows the main loop: the pending bound that has printed lines, then the rest *)
Theorem tie_lines_forward_finish (o : opt) (sin out lb : bytes) (li : Z) (i : nat) (an : bool) :
  (i <= length (items (o_bounds o)))%nat -> Z.of_nat (length (items (o_bounds o))) + 1 <= usize_max ->
  (an = true -> exists b, nth_error (items (o_bounds o)) i = Some (Bound b)) ->
  match fwd_finish o (skipn i (items (o_bounds o))) an with
  | Some r => gen_lines_forward_s5 sin out o lb li (Z.of_nat i) an = Ret (Some tt, out ++ r ++ [o_eol o])
  | None => exists p, gen_lines_forward_s5 sin out o lb li (Z.of_nat i) an = Ret (None, p)
  end.
Proof.
  intros Hi Hn Han. cbv beta iota zeta delta [gen_lines_forward_s5]. rewrite Nat2Z.id.
  destruct an.
  - destruct (Han eq_refl) as [b Eb]. rewrite Eb, (skipn_nth_cons _ _ _ Eb). cbn [fwd_finish].
    assert (Hlt : (i < length (items (o_bounds o)))%nat) by (apply nth_error_Some; rewrite Eb; discriminate).
    destruct (br b) as [r|]; cbn [side_eqb negb]; [eexists; reflexivity|].
    rewrite (usize_add_nat i), <- (sep_after_next o i _ Eb) by lia. cbn [bind].
    pose proof (s6_spec o sin (out ++ sep_after o (S i)) lb li (S i) true ltac:(lia) Hn) as H6.
    destruct (fwd_tail o (skipn (S i) (items (o_bounds o)))) as [r|]; [|destruct H6 as [p H6]; exists p];
      unfold sep_after in *; destruct (o_join o), (Z.of_nat (S i) =? Z.of_nat (length (items (o_bounds o))));
      cbn [andb negb app] in *; rewrite ?app_nil_r in H6; rewrite H6, <- ?app_assoc; reflexivity.
  - pose proof (s6_spec o sin out lb li i false Hi Hn) as H6. unfold fwd_finish.
    destruct (skipn i (items (o_bounds o))) as [|[b|f] r]; exact H6.
Qed.

Definition tie_lines_forward := tie_lines_forward_finish.
Print Assumptions tie_lines_forward_finish.

(** The inner loop of the main loop: for one line, the pending bounds are walked as the model's
    [fwd_bounds] walks them. *)
Section Inner.
  Variables (o : opt) (sin lb : bytes) (li : Z) (line : bytes).
  Notation its := (items (o_bounds o)).
  Notation n := (length (items (o_bounds o))).
  Notation S6 := (bytes * bytes * bytes * Z * Z * bool)%type.
  Notation st out i an := (sin, out, lb, li, Z.of_nat i, an) (only parsing).

  (** what one turn of the loop does at index i *)
  Definition turn (out : bytes) (i : nat) (an : bool) (x : bof) : ctrl S6 (option unit) :=
    match x with
    | Filler f => Next (st (out ++ f ++ sep_after o (S i)) (S i) an)
    | Bound b =>
        match matches b li with
        | Some true =>
            let pre := (if an then [o_eol o] else []) ++ line in
            if side_eqb (br b) (SSome li)
            then Next (st (out ++ pre ++ sep_after o (S i)) (S i) false)
            else Stop (st (out ++ pre) i true)
        | _ => Stop (st out i an)
        end
    end.

  (** the loop from index i on walks the pending bounds as [fwd_bounds] does, and it is left by `break` exactly
      when something stays pending *)
  Lemma inner_walk (cond : S6 -> rs bool) (body : S6 -> rs (ctrl S6 (option unit))) :
    (forall out i an, cond (st out i an) = Ret (Z.of_nat i <? Z.of_nat n)) ->
    (forall out i an x, nth_error its i = Some x -> body (st out i an) = Ret (turn out i an x)) ->
    forall fuel i, (i <= n)%nat -> (n - i < fuel)%nat -> forall out an,
      whileM fuel cond body (st out i an)
      = let '(o', rest, an') := fwd_bounds o (skipn i its) an li line in
        Ret ((match rest with [] => Next | _ => Stop end) (st (out ++ o') (n - length rest) an')).
  Proof.
    intros Hc Hb. set (T := S6) in *. (* by name, as in [s6_spec] *)
    induction fuel as [|fuel IH]; intros i Hi Hf out an; [lia|]. cbn [whileM]. rewrite Hc, Z_of_nat_ltb. cbn [bind].
    destruct (Nat.ltb_spec i n).
    - destruct (nth_error its i) as [x|] eqn:En; [|apply nth_error_None in En; lia].
      rewrite (Hb out i an x En), (skipn_nth_cons _ _ _ En). unfold turn. cbn [fwd_bounds].
      (* it stops at index i, everything from there on pending *)
      assert (Hlen : (n - length (x :: skipn (S i) its))%nat = i) by (rewrite <- (skipn_nth_cons _ _ _ En), skipn_length; lia).
      specialize (IH (S i) ltac:(lia) ltac:(lia)).
      destruct x as [b|f]; [destruct (matches b li) as [[|]|]; [destruct (side_eqb (br b) (SSome li))|..]|]; cbn [bind].
      2-4: rewrite Hlen, ?app_nil_r; reflexivity.
      (* or goes on with the next index *)
      all: rewrite IH, (sep_after_next o i _ En);
        destruct (fwd_bounds o (skipn (S i) its) _ li line) as [[o1 rest] a]; rewrite <- !app_assoc; reflexivity.
    - replace i with n by lia. rewrite skipn_all. cbn [fwd_bounds length]. rewrite app_nil_r, Nat.sub_0_r. reflexivity.
  Qed.

  Lemma inner_loop (cond : S6 -> rs bool) (body : S6 -> rs (ctrl S6 (option unit))) :
    (forall out i an, cond (st out i an) = Ret (Z.of_nat i <? Z.of_nat n)) ->
    (forall out i an x, nth_error its i = Some x -> body (st out i an) = Ret (turn out i an x)) ->
    forall k i out an fuel, (n - i = k)%nat -> (i <= n)%nat -> (k < fuel)%nat ->
      exists tag : S6 -> ctrl S6 (option unit), (tag = Next \/ tag = Stop) /\
        whileM fuel cond body (st out i an)
        = let '(o', rest, an') := fwd_bounds o (skipn i its) an li line in
          Ret (tag (st (out ++ o') (n - length rest) an')).
  Proof.
    intros Hc Hb k i out an fuel Hk Hi Hf. rewrite (inner_walk cond body Hc Hb) by lia.
    destruct (fwd_bounds o (skipn i its) an li line) as [[o' rest] an'].
    exists (match rest with [] => Next | _ => Stop end). split; [destruct rest; auto | reflexivity].
  Qed.
End Inner.

(** The main loop: one raw line after the other, each handed to the inner loop, until the input or the
    bounds are exhausted; then the finishing stages.  (A line is valid UTF-8 with its ASCII terminator exactly
    when it is without it: Proofs/Utf8Snoc.v.) *)
Definition of_outcome_fwd (m : outcome) (x : rs (option unit * bytes)) : Prop :=
  match m with
  | Done out => x = Ret (Some tt, out)
  | Fail _ => exists partial, x = Ret (None, partial)
  | _ => True
  end.

Section Outer.
  Variables (o : opt) (lb out0 : bytes).
  Notation its := (items (o_bounds o)).
  Notation n := (length (items (o_bounds o))).
  Notation eol := (o_eol o).
  Notation S6 := (bytes * bytes * bytes * Z * Z * bool)%type.

  Definition after (r : ctrl S6 (option unit)) : rs (option unit * bytes) :=
    match r with
    | Next (sin', out', lb', li', i', an') => gen_lines_forward_s5 sin' out' o lb' li' i' an'
    | Stop (sin', out', lb', li', i', an') => gen_lines_forward_s5 sin' out' o lb' li' i' an'
    | Break v => Ret (v, out0)
    end.

  Definition step_model (sin out : bytes) (li : Z) (i : nat) (an : bool) : rs (ctrl S6 (option unit)) :=
    match sin with
    | [] => Ret (Stop ([], out, lb, li, Z.of_nat i, an))
    | _ => let '(raw, rest) := take_line eol sin in
           if utf8_valid raw then
             let '(o', restb, an') := fwd_bounds o (skipn i its) an (li + 1) (strip_eol eol raw) in
             let i' := (n - length restb)%nat in
             Ret ((if Z.of_nat i' =? Z.of_nat n then Stop else Next) (rest, out ++ o', lb, li + 1, Z.of_nat i', an'))
           else Ret (Break None)
    end.

  Lemma outer_loop (step : S6 -> rs (ctrl S6 (option unit))) :
    Z.of_nat n + 1 <= usize_max ->
    (forall sin out li i an, 0 <= li -> li + 1 <= i32_max -> (i <= n)%nat ->
       step (sin, out, lb, li, Z.of_nat i, an) = step_model sin out li i an) ->
    forall fuel sin out li i an,
      (length sin < fuel)%nat -> 0 <= li -> li + Z.of_nat (length sin) + 1 <= i32_max -> (i < n)%nat ->
      (an = true -> exists b r, skipn i its = Bound b :: r) ->
      (forall l, In l (records eol sin) -> utf8_valid (l ++ [eol]) = utf8_valid l) ->
      of_outcome_fwd (fwd_lines o (records eol sin) (skipn i its) an li out)
                     (bind (loopWhile fuel step (sin, out, lb, li, Z.of_nat i, an)) after).
  Proof.
    intros Hn Hstep. set (T := S6) in *. (* by name, as in [s6_spec] *)
    induction fuel as [|fuel IH]; intros sin out li i an Hf Hli Hmax Hi Hinv Hutf; [lia|].
    cbn [loopWhile]. rewrite Hstep by lia. unfold step_model.
    destruct sin as [|c sin'].
    - (* the input is exhausted *)
      cbn [bind records records_aux fwd_lines after].
      pose proof (tie_lines_forward_finish o [] out lb li i an ltac:(lia) Hn) as F.
      assert (Hinv' : an = true -> exists b, nth_error its i = Some (Bound b)).
      { intros E. destruct (Hinv E) as (b & r & Hs). exists b. rewrite nth_skipn, Hs. reflexivity. }
      specialize (F Hinv'). destruct (fwd_finish o (skipn i its) an) as [t|]; cbn [of_outcome_fwd]; exact F.
    - assert (Hne : c :: sin' <> []) by discriminate.
      pose proof (records_take eol _ Hne) as RT. pose proof (proj2 (take_line_length eol _) Hne) as TL. cbv iota.
      destruct (take_line eol (c :: sin')) as [raw rest]. cbn [snd] in TL. destruct RT as [Erec Eraw].
      rewrite Erec. cbn [fwd_lines].
      assert (Hu : utf8_valid raw = utf8_valid (strip_eol eol raw)).
      { destruct Eraw as [E|[E _]]; [|rewrite <- E; reflexivity]. rewrite E at 1. apply Hutf. rewrite Erec. left. reflexivity. }
      rewrite Hu. destruct (utf8_valid (strip_eol eol raw)); cbn [negb]; [|cbn [bind after of_outcome_fwd]; eexists; reflexivity].
      pose proof (fwd_bounds_suffix o (li + 1) (strip_eol eol raw) (skipn i its) an Hinv) as FS.
      destruct (fwd_bounds o (skipn i its) an (li + 1) (strip_eol eol raw)) as [[o' restb] an'].
      destruct FS as [[pre Hpre] Han'].
      destruct (suffix_skipn its i pre restb Hpre) as [Hsk Hlr].
      destruct restb as [|rb restb']; cbn [length] in *.
      + (* every bound has been used: the loop is left, the finishing stages add the EOL *)
        rewrite Nat.sub_0_r, Z.eqb_refl. cbn [bind after].
        pose proof (tie_lines_forward_finish o rest (out ++ o') lb (li + 1) n an' ltac:(lia) Hn) as F.
        assert (Hno : an' = true -> exists b, nth_error its n = Some (Bound b)).
        { intros E. destruct (Han' E) as (b & r & Hb). discriminate. }
        specialize (F Hno). rewrite skipn_all in F. cbn [fwd_finish fwd_tail app] in F. cbn [of_outcome_fwd]. rewrite <- app_assoc in F. exact F.
      + destruct (Z.eqb_spec (Z.of_nat (n - S (length restb'))) (Z.of_nat n)) as [E|E]; [lia|]. cbn [bind].
        assert (IH' := IH rest (out ++ o') (li + 1) (n - S (length restb'))%nat an'). rewrite Hsk in IH'.
        apply IH'; try lia; [exact Han' | intros l Hl; apply Hutf; rewrite Erec; right; exact Hl].
  Qed.
End Outer.

(** the whole function *)
Theorem tie_lines_forward_whole : forall (o : opt) (input : bytes),
  items (o_bounds o) <> [] ->
  Z.of_nat (length (items (o_bounds o))) + 1 <= usize_max ->
  Z.of_nat (length input) + 1 <= i32_max ->
  (o_eol o < 128)%N ->
  of_outcome_fwd (fwd_lines o (records (o_eol o) input) (items (o_bounds o)) false 0 [])
                 (gen_lines_forward input o).
Proof.
  intros o input Hne Hn Hlen Heol.
  assert (Hutf : forall l, In l (records (o_eol o) input) -> utf8_valid (l ++ [o_eol o]) = utf8_valid l)
    by (intros l _; apply utf8_valid_snoc, Heol).
  assert (Hpos : (0 < length (items (o_bounds o)))%nat) by (destruct (items (o_bounds o)); [contradiction | cbn; lia]).
  cbv beta iota zeta delta [gen_lines_forward gen_lines_forward_s1 gen_lines_forward_s2 gen_lines_forward_s3 gen_lines_forward_s4].
  set (S6 := (bytes * bytes * bytes * Z * Z * bool)%type).
  match goal with |- of_outcome_fwd _ (bind (loopWhile ?fuel ?f _) _) => set (step := f) end.
  assert (Hstep : forall sin out li i an, 0 <= li -> li + 1 <= i32_max -> (i <= length (items (o_bounds o)))%nat ->
             step (sin, out, [], li, Z.of_nat i, an) = step_model o [] sin out li i an).
  2: apply (outer_loop o [] [] step Hn Hstep _ input [] 0 0%nat false); try lia; try discriminate; exact Hutf.
  (* one turn of the main loop *)
  intros sin out li i an Hli Hmax Hi. unfold step_model. subst step. cbv beta iota.
  match goal with |- context [bind (whileM _ ?c _ _) ?K0] => set (cond := c); set (K := K0) end.
  rewrite i32_add_ok by (unfold i32_min; lia). cbn [bind]. unfold read_line_eol.
  destruct sin as [|c sin']; [reflexivity|].
  destruct (take_line (o_eol o) (c :: sin')) as [raw rest].
  destruct (utf8_valid raw); [|reflexivity].
  match goal with |- context [whileM _ cond ?b _] => set (body := b) end.
  rewrite (inner_walk o rest [] (li + 1) (strip_eol (o_eol o) raw) cond body); try lia.
  - destruct (fwd_bounds o (skipn i (items (o_bounds o))) an (li + 1) (strip_eol (o_eol o) raw)) as [[o' restb] an'].
    unfold K. destruct restb; cbn [bind]; destruct (_ =? _); reflexivity.
  - intros; reflexivity.
  - (* one turn of the inner loop *)
    intros out' j an0 x En. unfold body. clear cond K body. rewrite Nat2Z.id, En. cbn [opt_unwrap bind]. unfold turn, sep_after.
    assert (Hj : (j < length (items (o_bounds o)))%nat) by (apply nth_error_Some; rewrite En; discriminate).
    destruct x as [b|f].
    + rewrite tie_ub_matches, ?(usize_add_nat j) by lia. cbn [bind].
      destruct (matches b (li + 1)) as [[|]|]; try reflexivity.
      rewrite ?(side_eqb_sym (SSome (li + 1)) (br b)).
      repeat case_if; cbn [app]; rewrite <- ?app_assoc, ?app_nil_r; reflexivity.
    + rewrite (usize_add_nat j) by lia. cbn [bind].
      repeat case_if; cbn [app]; rewrite <- ?app_assoc, ?app_nil_r; reflexivity.
Qed.

Print Assumptions tie_lines_forward_whole.
