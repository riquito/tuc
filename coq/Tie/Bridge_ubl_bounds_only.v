(** [UserBoundsList::get_userbounds_only], as translated, yields the model's [bounds_only]. *)
From TucModel Require Import Base.Bytes Model.Bounds Tie.RsPrelude Tie.RsFacts Tie.Gen_ubl_bounds_only.
Import ListNotations.
Local Open Scope Z_scope.

Lemma tie_ubl_bounds_only : forall u : ublist, gen_ubl_bounds_only u = Ret (bounds_only (items u)).
Proof.
  intros u. cbv beta delta [gen_ubl_bounds_only] iota zeta. unfold to_list at 1, iter_list. unfold bounds_only.
  match goal with |- context [flat_mapM ?F _] =>
    rewrite (flat_mapM_ret F (fun x => match x with Bound b => Some b | Filler _ => None end))
  end.
  - cbn [bind]. f_equal. apply flat_map_ext. intros [b|f]; reflexivity.
  - intros [b|f] _; reflexivity.
Qed.
