(** [maybe_replace_delimiter] (src/cut_str.rs), as translated with the matches of the regex taken from the
    model (hybrid), is the model's [maybe_replace], and [Panic] where that is [None]. *)
From TucModel Require Import Base.Bytes Model.Opt Model.CutStr
  Tie.RsPrelude Tie.RsRegex Tie.Gen_maybe_replace.
Import ListNotations.

Lemma maybe_replace_image (o : opt) (text : bytes) :
  gen_maybe_replace text o = match maybe_replace o text with Some t => Ret t | None => Panic end.
Proof.
  cbv beta delta [gen_maybe_replace maybe_replace] iota zeta.
  destruct (o_btype o); cbn [btype_eqb]; try reflexivity.
  all: destruct (o_replace o) as [nd|]; [|reflexivity]; destruct (o_regex o) as [x|]; [|reflexivity].
  all: destruct (o_compress o); [reflexivity|]; unfold rx_replace_all, rb_normal, rx_matches; cbn [fst snd].
  all: destruct (rx_normal x text) as [ms|]; reflexivity.
Qed.

Theorem tie_maybe_replace : forall (o : opt) (text t : bytes),
  maybe_replace o text = Some t -> gen_maybe_replace text o = Ret t.
Proof. intros o text t H. rewrite maybe_replace_image, H. reflexivity. Qed.

Theorem tie_maybe_replace_none : forall (o : opt) (text : bytes),
  maybe_replace o text = None -> gen_maybe_replace text o = Panic.
Proof. intros o text H. rewrite maybe_replace_image, H. reflexivity. Qed.
