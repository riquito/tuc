(** [cut_bytes] (src/cut_bytes.rs), as translated with what it writes to stdout accumulated: on a
    non-empty input of at most 2^31 - 1 bytes, with no bound whose left side is the index 0 (the
    hypotheses of [tie_ub_try_into_range]), it does not panic (`&data[r.start..r.end]` is in range),
    succeeds when the model's [cut_bytes_items] does, and has then written the model's output. *)
From TucModel Require Import Base.Bytes Model.Bounds Model.Opt Model.CutBytes Proofs.BoundsFacts
  Tie.RsPrelude Tie.TieBase Tie.RsList Tie.RsFacts
  Tie.Bridge_ub_try_into_range Tie.Bridge_ubl_unpack Tie.Gen_cut_bytes.
Import ListNotations.
Local Open Scope Z_scope.

Definition piece (generic : option bytes) (data : bytes) (x : bof) : option bytes :=
  match x with
  | Filler f => Some f
  | Bound b => match try_into_range b (length data) with
               | Some (s, e) => Some (slice data s e)
               | None => fallback_for b generic
               end
  end.

(** the walk over the items with the output so far: (succeeded?, written) *)
Fixpoint walk (generic : option bytes) (data : bytes) (acc : bytes) (l : list bof) : option unit * bytes :=
  match l with
  | [] => (Some tt, acc)
  | x :: l' => match piece generic data x with
               | Some o => walk generic data (acc ++ o) l'
               | None => (None, acc)
               end
  end.

Lemma walk_items generic data l : forall acc,
  walk generic data acc l = match cut_bytes_items l generic data with
                            | Some o => (Some tt, acc ++ o)
                            | None => (None, snd (walk generic data acc l))
                            end.
Proof.
  induction l as [|x l IH]; intros acc; cbn [walk cut_bytes_items]; [rewrite app_nil_r; reflexivity|].
  destruct x as [b|f]; cbn [piece].
  - destruct (match try_into_range b (length data) with Some (s, e) => Some (slice data s e) | None => fallback_for b generic end) as [o|];
      [|reflexivity]. rewrite IH. destruct (cut_bytes_items l generic data); [rewrite app_assoc; reflexivity|reflexivity].
  - rewrite IH. destruct (cut_bytes_items l generic data); [rewrite app_assoc; reflexivity|reflexivity].
Qed.

(** the items walked with a body that appends the piece or leaves the loop; what [Break] carries is the
    body's choice: the output so far (a failing [try_for_each] step), or the function's result when a
    [for] loop is left with `return Err(..)` *)
Lemma loopM_walk_break {R} (brk : bytes -> R) (F : bytes -> bof -> rs (ctrl bytes R)) generic data :
  forall l, (forall st x, In x l -> F st x = Ret (match piece generic data x with Some o => Next (st ++ o) | None => Break (brk st) end)) ->
  forall st, loopM F l st = Ret (match walk generic data st l with (Some _, a) => Next a | (None, a) => Break (brk a) end).
Proof.
  induction l as [|x l IH]; intros H st; cbn [loopM walk]; [reflexivity|].
  rewrite (H st x (or_introl eq_refl)). destruct (piece generic data x) as [o|]; cbn [bind]; [|reflexivity].
  apply IH. intros st' y Hy. apply H. right. exact Hy.
Qed.

Lemma loopM_walk (F : bytes -> bof -> rs (ctrl bytes bytes)) generic data :
  forall l, (forall st x, In x l -> F st x = Ret (match piece generic data x with Some o => Next (st ++ o) | None => Break st end)) ->
  forall st, loopM F l st = Ret (match walk generic data st l with (Some _, a) => Next a | (None, a) => Break a end).
Proof. exact (loopM_walk_break (fun a => a) F generic data). Qed.

Lemma loopM_walk_for (F : bytes -> bof -> rs (ctrl bytes (option unit))) generic data :
  forall l, (forall st x, In x l -> F st x = Ret (match piece generic data x with Some o => Next (st ++ o) | None => Break None end)) ->
  forall st, loopM F l st = Ret (match walk generic data st l with (Some _, a) => Next a | (None, _) => Break None end).
Proof. exact (loopM_walk_break (fun _ => None) F generic data). Qed.

Lemma tie_cut_bytes_model : forall (data : bytes) (o : opt),
  Z.of_nat (length data) <= i32_max -> Forall item_left_nz (items (o_bounds o)) -> data <> [] ->
  exists r, gen_cut_bytes data o = Ret r
            /\ match cut_bytes_items (items (o_bounds o)) (o_fallback o) data with
               | Some out => r = (Some tt, out)
               | None => fst r = None
               end.
Proof.
  intros data o Hn Hnz Hne. cbv beta delta [gen_cut_bytes] iota zeta.
  destruct data as [|d0 data']; [contradiction|]. set (data := d0 :: data') in *. cbv iota beta.
  unfold to_list, iter_ublist.
  pose proof (walk_items (o_fallback o) data (items (o_bounds o)) []) as Hw. cbn [app] in Hw.
  (* [try_for_each], or the same walk written as a [for] loop *)
  first [ match goal with |- context [loopM ?F _ _] => rewrite (loopM_walk F (o_fallback o) data) end
        | match goal with |- context [loopM ?F _ _] => rewrite (loopM_walk_for F (o_fallback o) data) end ].
  - cbn [bind]. destruct (walk (o_fallback o) data [] (items (o_bounds o))) as [[[]|] a]; cbn [bind];
      (eexists; split; [reflexivity|]);
      destruct (cut_bytes_items (items (o_bounds o)) (o_fallback o) data); first [exact Hw | discriminate Hw | reflexivity].
  - intros st x Hx. rewrite Forall_forall in Hnz. specialize (Hnz x Hx).
    destruct x as [b|f]; cbn beta iota; cbn [piece]; [|reflexivity].
    rewrite (tie_ub_try_into_range b (length data) Hn Hnz). cbn [bind].
    destruct (try_into_range b (length data)) as [[s e]|] eqn:E; cbn [range_Z fst snd].
    + rewrite str_between_ok by (pose proof (try_into_range_bounds b (length data) s e Hnz E); lia). reflexivity.
    + unfold fallback_for. destruct (bfb b); [reflexivity|]. destruct (o_fallback o); reflexivity.
Qed.
