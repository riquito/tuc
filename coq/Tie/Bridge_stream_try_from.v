(** [TryFrom<&Opt> for StreamOpt] (src/stream.rs), as translated with [ForwardBounds::try_from] taken from
    the model: it never panics (`unwrap` on the replacement is reached only behind `is_some`), accepts when
    the model's [stream_opt] does, and carries over the delimiter, replacement, join, terminator and
    fallback. *)
From TucModel Require Import Base.Bytes Model.Opt Model.Stream
  Tie.RsPrelude Tie.TieBase Tie.RsOpt Tie.Gen_stream_try_from.
Import ListNotations.
Local Open Scope Z_scope.

Definition stream_image (o : opt) : option gsopt :=
  match stream_opt o with
  | Some so => Some (mkGSO (s_delim so) (s_repl so) (s_join so) (s_eol so) (o_bounds o) (s_fallback so))
  | None => None
  end.

Lemma tie_stream_try_from : forall o : opt, gen_stream_try_from o = Ret (stream_image o).
Proof.
  intros o. cbv beta delta [gen_stream_try_from] iota zeta. unfold stream_image, stream_opt, model_forward_try_from.
  (* the delimiter and the replacement - none, one byte, more: the tests of their lengths compute; then the
     flags, as far as they matter *)
  destruct (o_delim o) as [|d [|d2 ds]]; cbn [length hd_error]; sign_tests.
  all: destruct (o_replace o) as [[|r [|r2 rs]]|]; cbn [opt_unwrap bind length hd_error]; sign_tests.
  all: repeat (case_if; cbn [bind opt_unwrap opt_mapM hd_error]); first [reflexivity | lia].
Qed.
