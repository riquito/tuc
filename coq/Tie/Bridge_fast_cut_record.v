(** [cut_str_fast_lane], the fast lane's per-record function, as translated, with its writes
    accumulated and its scratch vector of field starts as an argument, is the model's [cut_fast]: for
    every record of at most 2^31 - 3 bytes, every option set in the fast lane's domain and WHATEVER the
    scratch vector held on entry (C10), it writes exactly what the model prints and fails or panics
    exactly where the model does. *)
From TucModel Require Import Base.Bytes Model.Bounds Model.Scan Model.Opt Model.FastLane Tie.RsPrelude Tie.RsOpt
  Tie.RsList Tie.RsFacts Tie.CutStrFacts Tie.Bridge_fast_output_parts Tie.Bridge_ubl_unpack Tie.Gen_fast_cut_record.
Import ListNotations.
Local Open Scope Z_scope.

Notation st4 := (list N * list Z * list N * Z)%type (only parsing).

(** the scan: one push per delimiter, stopping at the last interesting field.  What follows the loop
    ([K]) does the same whether it was left by `break` or ran to its end. *)
Lemma scan_loop {R} (F : st4 -> Z -> rs (ctrl st4 (option unit))) (lif : side) (K : ctrl st4 (option unit) -> rs R) :
  (forall out fs buf c i, c + 1 <= i32_max -> 0 <= i -> i + 1 <= usize_max -> i32_min <= c ->
     F (out, fs, buf, c) i = Ret (if side_eqb (SSome (c + 1)) lif then Stop (out, fs ++ [i + 1], buf, c + 1)
                                  else Next (out, fs ++ [i + 1], buf, c + 1))) ->
  (forall s, K (Stop s) = K (Next s)) ->
  forall (ps : list nat) out fs buf c,
    0 <= c -> c + Z.of_nat (length ps) <= i32_max -> Forall (fun i => Z.of_nat i + 1 <= usize_max) ps ->
    bind (loopM F (map Z.of_nat ps) (out, fs, buf, c)) K
    = K (Next (out, fs ++ map Z.of_nat (fst (scan_starts lif c ps)), buf, snd (scan_starts lif c ps))).
Proof.
  intros HF HK ps. induction ps as [|i ps IH]; intros out fs buf c Hc Hlen Hall; cbn [map loopM scan_starts length] in *.
  - cbn [bind fst snd map]. rewrite app_nil_r. reflexivity.
  - inversion Hall as [|? ? Hi Hps]; subst.
    rewrite HF by (unfold i32_min; lia). replace (Z.of_nat i + 1) with (Z.of_nat (S i)) by lia.
    destruct (side_eqb (SSome (c + 1)) lif); cbn [bind]; [apply HK|].
    rewrite IH by (try exact Hps; lia). destruct (scan_starts lif (c + 1) ps) as [r c']. cbn [fst snd map].
    rewrite <- app_assoc. reflexivity.
Qed.

Lemma scan_starts_length lif : forall ps c, (length (fst (scan_starts lif c ps)) <= length ps)%nat.
Proof.
  induction ps as [|i ps IH]; intros c; cbn [scan_starts]; [cbn; lia|].
  destruct (side_eqb (SSome (c + 1)) lif); [cbn; lia|].
  specialize (IH (c + 1)). destruct (scan_starts lif (c + 1) ps). cbn [fst length] in *. lia.
Qed.

(** one item of the model's output loop: a filler, or what a bound prints with the separator after it *)
Definition fast_item (o : opt) (d : byte) (line : bytes) (fields : list nat) (x : bof) : rres :=
  match x with
  | Filler f => ROk f
  | Bound b => fast_piece (o_join o) (o_fallback o) d line fields b
  end.

Lemma fast_out_cons o d line fields x bs :
  fast_out o d line fields (x :: bs)
  = match fast_item o d line fields x with
    | ROk p => match fast_out o d line fields bs with ROk r => ROk (p ++ r) | e => e end
    | e => e
    end.
Proof.
  cbn [fast_out]. destruct x as [b|f]; [|reflexivity]. unfold fast_item, fast_piece.
  match goal with |- match ?piece with _ => _ end = _ => destruct piece as [p| | |] end; try reflexivity.
  destruct (fast_out o d line fields bs); try reflexivity. rewrite <- app_assoc. reflexivity.
Qed.

Definition gf_of (o : opt) (d : byte) : gfopt :=
  mkGFO d (o_join o) (o_eol o) (o_bounds o) (o_only_delimited o) (o_trim o) (o_fallback o).

Definition of_rres_partial (r : rres) (x : rs (option unit * bytes)) : Prop :=
  match r with
  | ROk out => x = Ret (Some tt, out)
  | RErr => exists partial, x = Ret (None, partial)
  | _ => x = Panic
  end.

Lemma positions_lt d : forall buf pos, Forall (fun i => (i < pos + length buf)%nat) (positions_from d pos buf).
Proof.
  induction buf as [|x buf IH]; intros pos; cbn [positions_from length]; [constructor|].
  specialize (IH (S pos)). assert (H : Forall (fun i => (i < pos + S (length buf))%nat) (positions_from d (S pos) buf))
    by (eapply Forall_impl; [|exact IH]; cbn; intros; lia).
  destruct (N.eqb x d); [constructor; [lia | exact H] | exact H].
Qed.

Lemma positions_len d : forall buf pos, (length (positions_from d pos buf) <= length buf)%nat.
Proof.
  induction buf as [|x buf IH]; intros pos; cbn [positions_from length]; [lia|].
  specialize (IH (S pos)). destruct (N.eqb x d); cbn [length]; lia.
Qed.

(** the model's [cut_fast] from the trimmed record on *)
Definition cut_fast_from (o : opt) (d : byte) (buffer : bytes) : rres :=
  match buffer with
  | [] => ROk (if o_only_delimited o then [] else [o_eol o])
  | _ :: _ =>
      let '(starts, curr) := scan_starts (lif (o_bounds o)) 0 (positions_from d 0 buffer) in
      if (curr =? 0) && o_only_delimited o then ROk []
      else match fast_out o d buffer (0%nat :: starts ++ (if side_eqb (SSome curr) (lif (o_bounds o)) then [] else [S (length buffer)]))
                   (items (o_bounds o)) with
           | ROk body => ROk (body ++ [o_eol o])
           | e => e
           end
  end.

(** the code after the optional trim, which the translation has in two copies, is the function itself
    on the trimmed record without -t *)
Lemma fast_cut_from (o : opt) (d : byte) (buffer : bytes) (fields0 : list Z) :
  Z.of_nat (length buffer) + 2 <= i32_max -> Forall item_left_nz (items (o_bounds o)) ->
  of_rres_partial (cut_fast_from o d buffer)
    (gen_fast_cut_record buffer (mkGFO d (o_join o) (o_eol o) (o_bounds o) (o_only_delimited o) None (o_fallback o)) fields0 (lif (o_bounds o))).
Proof.
  intros Hlen Hnz. set (g := mkGFO d (o_join o) (o_eol o) (o_bounds o) (o_only_delimited o) None (o_fallback o)).
  cbv beta iota zeta delta [gen_fast_cut_record]. cbv beta iota delta [g gf_trim gf_delim gf_only_delimited gf_eol gf_bounds]. fold g.
  (* the two loops and what follows them are named: the steps below concern one of them at a time *)
  match goal with |- context [bind (loopM ?F (to_list (o_bounds o)) _) ?K] => set (Fout := F); set (Kout := K) end.
  match goal with |- context [bind (loopM ?F (to_list (memchr_iter d buffer)) _) ?K] => set (Fscan := F); set (Kscan := K) end.
  unfold cut_fast_from. destruct buffer as [|b0 buf'] eqn:Ebuf.
  { destruct (o_only_delimited o); reflexivity. }
  rewrite <- Ebuf in *. clear Ebuf b0 buf'. cbv beta iota.
  set (lif0 := lif (o_bounds o)) in *. set (ps := positions_from d 0 buffer).
  pose proof (positions_len d buffer 0) as Hps_len. fold ps in Hps_len.
  unfold to_list at 1, iter_list, memchr_iter. fold ps.
  rewrite (scan_loop Fscan lif0 Kscan).
  2:{ intros out fs buf c i H1 H2 H3 H4. unfold Fscan. cbv beta iota. rewrite i32_add_ok, usize_add_ok by lia. cbn [bind].
      destruct (side_eqb (SSome (c + 1)) lif0); reflexivity. }
  2:{ intros [[[out fs] buf] c]. reflexivity. }
  2: lia.
  2:{ unfold i32_max in *. lia. }
  2:{ pose proof (positions_lt d buffer 0) as H. eapply Forall_impl; [|exact H]. cbn. intros a Ha. unfold usize_max, i32_max in *. lia. }
  clear Fscan. unfold Kscan. clear Kscan.
  pose proof (scan_starts_length lif0 ps 0) as Hstarts.
  destruct (scan_starts lif0 0 ps) as [starts curr]. cbn [fst snd] in *. cbv beta iota.
  rewrite ?(andb_comm (o_only_delimited o) (curr =? 0)). destruct ((curr =? 0) && o_only_delimited o); [reflexivity|].
  (* the table of field starts, with the end of the record unless the scan stopped early *)
  set (fields_m := 0%nat :: starts ++ (if side_eqb (SSome curr) lif0 then [] else [S (length buffer)])).
  assert (Hfz : (if side_eqb (SSome curr) lif0 then ([] ++ [0]) ++ map Z.of_nat starts
                 else (([] ++ [0]) ++ map Z.of_nat starts) ++ [Z.of_nat (S (length buffer))]) = map Z.of_nat fields_m).
  { unfold fields_m. destruct (side_eqb (SSome curr) lif0); cbn [map app]; rewrite ?map_app, ?app_nil_r; reflexivity. }
  assert (Hfm_len : Z.of_nat (length fields_m) <= i32_max).
  { unfold fields_m. cbn [length]. rewrite app_length. destruct (side_eqb (SSome curr) lif0); cbn [length]; lia. }
  unfold to_list, iter_ublist.
  (* the output loop from the table on, the same in both copies *)
  assert (Hout : of_rres_partial
              (match fast_out o d buffer fields_m (items (o_bounds o)) with ROk body => ROk (body ++ [o_eol o]) | e => e end)
              (bind (loopM Fout (items (o_bounds o)) ([], map Z.of_nat fields_m, buffer, curr)) Kout)).
  { assert (HF : forall out x, In x (items (o_bounds o)) ->
               Fout (out, map Z.of_nat fields_m, buffer, curr) x
               = match fast_item o d buffer fields_m x with
                 | ROk p => Ret (Next (out ++ p, map Z.of_nat fields_m, buffer, curr))
                 | RErr => Ret (Break (out, map Z.of_nat fields_m, buffer, curr))
                 | _ => Panic
                 end).
    { intros out x Hx. rewrite Forall_forall in Hnz. specialize (Hnz x Hx). unfold Fout. destruct x as [b|f]; cbv beta iota; cbn [fast_item]; [|reflexivity].
      rewrite (tie_fast_output_parts buffer b fields_m g) by (try exact Hnz; try discriminate; unfold usize_max, i32_max in *; lia).
      cbv beta iota delta [g gf_join gf_fallback gf_delim].
      destruct (fast_piece (o_join o) (o_fallback o) d buffer fields_m b); cbn [of_rres bind]; rewrite ?app_nil_r; reflexivity. }
    pose proof (loopM_written (fun out => (out, map Z.of_nat fields_m, buffer, curr)) Fout (fast_item o d buffer fields_m)
                  (fast_out o d buffer fields_m) eq_refl (fast_out_cons o d buffer fields_m) _ HF []) as L.
    cbv beta in L. clear HF.
    destruct (fast_out o d buffer fields_m (items (o_bounds o))) as [r| | |].
    - rewrite L. reflexivity.
    - destruct L as [out' L]. rewrite L. eexists. reflexivity.
    - rewrite L. reflexivity.
    - rewrite L. reflexivity. }
  destruct (side_eqb (SSome curr) lif0); cbn [negb]; cbv iota; [|rewrite usize_add_nat by (unfold usize_max, i32_max in *; lia); cbn [bind]].
  all: rewrite Hfz; exact Hout.
Qed.

Theorem tie_fast_cut_record : forall (o : opt) (d : byte) (line0 : bytes) (fields0 : list Z),
  o_delim o = [d] -> Z.of_nat (length line0) + 2 <= i32_max ->
  Forall item_left_nz (items (o_bounds o)) ->
  of_rres_partial (cut_fast o line0)
                  (gen_fast_cut_record line0 (gf_of o d) fields0 (lif (o_bounds o))).
Proof.
  intros o d line0 fields0 Hd Hlen Hnz. unfold cut_fast, gf_of. rewrite Hd.
  destruct (o_trim o) as [k|].
  - pose proof (trim_lit_le k [d] line0) as Hk. apply (fast_cut_from o d (trim_lit k [d] line0) fields0); [lia | exact Hnz].
  - exact (fast_cut_from o d line0 fields0 Hlen Hnz).
Qed.
