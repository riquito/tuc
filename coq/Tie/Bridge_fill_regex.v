(** [fill_with_fields_locations_using_regex] (src/cut_str.rs), as translated with the buffer as an argument
    and a result: whatever the buffer held, it returns holding the gaps between the matches of the regex
    on the record, these taken from the model ([rx_matches], hybrid). *)
From TucModel Require Import Base.Bytes Model.Scan Model.Opt
  Tie.RsPrelude Tie.RsRegex Tie.CutStrFacts Tie.Gen_fill_regex.
Import ListNotations.
Local Open Scope Z_scope.

Lemma fill_regex_loop (F : list (Z * Z) * Z -> Z * Z -> rs (ctrl (list (Z * Z) * Z) unit)) :
  (forall buf prev m, F (buf, prev) m = Ret (Next (buf ++ [(prev, fst m)], snd m))) ->
  forall ms buf prev,
    loopM F (map mzz ms) (buf, Z.of_nat prev)
    = Ret (Next (buf ++ map mzz (gaps_init prev ms), Z.of_nat (gaps_last prev ms))).
Proof.
  intros HF. induction ms as [|m ms IH]; intros buf prev; cbn [map loopM gaps_init gaps_last].
  - rewrite app_nil_r. reflexivity.
  - rewrite HF. cbn [bind]. change (snd (mzz m)) with (Z.of_nat (snd m)). change (fst (mzz m)) with (Z.of_nat (fst m)).
    rewrite IH, <- app_assoc. reflexivity.
Qed.

Theorem tie_fill_regex : forall (buffer0 : list (Z * Z)) (line : bytes) (r : rx * bool) (ms : list mtch),
  rx_matches r line = Some ms ->
  gen_fill_regex buffer0 line r = Ret (tt, map mzz (fields_of_matches ms line)).
Proof.
  intros buffer0 line r ms Hm. cbv beta delta [gen_fill_regex] iota zeta. unfold fields_of_matches.
  destruct line as [|x line']; [reflexivity|]. set (line := x :: line') in *. cbv iota beta.
  unfold to_list, iter_list, rx_find_iter_z. rewrite Hm. change 0 with (Z.of_nat 0).
  match goal with |- context [loopM ?F _ _] => rewrite (fill_regex_loop F) end.
  - cbn [bind app]. rewrite gaps_from_split, map_app. reflexivity.
  - intros buf prev m. reflexivity.
Qed.
