(** [ForwardBounds::get_last_bound] (src/stream.rs), as translated: on a value the translated
    [ForwardBounds::try_from] builds from a list with a bound, it returns a bound of the list - the
    "Invariant error" `panic!` is not reached. *)
From TucModel Require Import Base.Bytes Model.Bounds Model.Stream
  Tie.RsPrelude Tie.RsOpt
  Tie.Gen_fb_try_from Tie.Bridge_fb_try_from Tie.Gen_get_last_bound.
Import ListNotations.
Local Open Scope Z_scope.

Lemma in_enumerate {A} : forall (l : list A) (s : nat) (i : Z) (x : A),
  In (i, x) (combine (map Z.of_nat (seq s (length l))) l) ->
  (s <= Z.to_nat i)%nat /\ 0 <= i /\ nth_error l (Z.to_nat i - s) = Some x.
Proof.
  induction l as [|y l IH]; intros s i x H; cbn [length seq map combine] in H; [contradiction|].
  destruct H as [H|H].
  - injection H as <- <-. rewrite Nat2Z.id, Nat.sub_diag. split; [lia | split; [lia | reflexivity]].
  - destruct (IH (S s) i x H) as (H1 & H2 & H3). split; [lia | split; [lia|]].
    replace (Z.to_nat i - s)%nat with (S (Z.to_nat i - S s)) by lia. exact H3.
Qed.

Theorem tie_get_last_bound : forall (u : ublist) (fb : gfb),
  bounds_only (items u) <> [] -> gen_fb_try_from u = Ret (Some fb) ->
  exists b, gen_get_last_bound fb = Ret b /\ In (Bound b) (items (fb_list fb)).
Proof.
  intros u fb Hb H. rewrite (tie_fb_try_from u Hb) in H. injection H as H. unfold fb_image in H.
  destruct (forward_bounds_ok (items u)); [|discriminate].
  destruct (from_vec (items u)) as [v|]; [|discriminate].
  destruct (last_bound_idx (items v)) as [i|] eqn:Ei; [|discriminate]. injection H as <-.
  cbv beta delta [gen_get_last_bound] iota zeta. cbn [fb_list fb_last].
  unfold last_bound_idx in Ei. destruct (first_bound_idx_spec _ _ Ei) as [b Hin].
  apply in_rev in Hin. unfold enumerate_z in Hin. destruct (in_enumerate (items v) 0 i (Bound b) Hin) as (_ & _ & Hn).
  rewrite Nat.sub_0_r in Hn. rewrite Hn. exists b. split; [reflexivity|]. apply (nth_error_In _ _ Hn).
Qed.
