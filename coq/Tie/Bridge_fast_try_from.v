(** [TryFrom<&Opt> for FastOpt] (src/fast_lane.rs), as translated: it never panics, accepts when the
    model's [fast_eligible] does, and carries the options over. *)
From TucModel Require Import Base.Bytes Model.Opt Model.FastLane
  Tie.RsPrelude Tie.TieBase Tie.RsOpt Tie.Gen_fast_try_from.
Import ListNotations.
Local Open Scope Z_scope.

Definition fast_image (o : opt) : option gfopt :=
  if fast_eligible o then
    match o_delim o with
    | d :: _ => Some (mkGFO d (o_join o) (o_eol o) (o_bounds o) (o_only_delimited o) (o_trim o) (o_fallback o))
    | [] => None
    end
  else None.

Lemma tie_fast_try_from : forall o : opt, gen_fast_try_from o = Ret (fast_image o).
Proof.
  intros o. cbv beta delta [gen_fast_try_from] iota zeta. unfold fast_image, fast_eligible.
  (* no delimiter, one byte, more: the two tests of its length compute; then the flags, as far as they matter *)
  destruct (o_delim o) as [|d [|d2 ds]]; cbn [length hd_error Nat.eqb andb]; sign_tests.
  all: repeat case_if; first [reflexivity | lia].
Qed.
