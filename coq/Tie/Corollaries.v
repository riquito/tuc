(** What the property theorems say about the code as translated from the Rust source (the [gen_*]
    definitions of [Tie/Gen_*.v]), obtained from the theorems over the hand-written model through the
    bridge lemmas. *)
From TucModel Require Import Base.Bytes Model.Bounds Spec.Resolve Proofs.BoundsFacts Proofs.C09 Proofs.C15
  Tie.RsPrelude Tie.TieBase
  Tie.Gen_side_partial_cmp Tie.Bridge_side_partial_cmp
  Tie.Gen_ub_partial_cmp Tie.Bridge_ub_partial_cmp
  Tie.Gen_ub_matches Tie.Bridge_ub_matches
  Tie.Gen_ub_try_into_range Tie.Bridge_ub_try_into_range
  Tie.Gen_complement_std_range Tie.Bridge_complement_std_range
  Tie.Gen_ub_unpack Tie.Bridge_ub_unpack Tie.Gen_ub_complement Tie.Bridge_ub_complement
  Tie.Gen_ubl_is_sortable Tie.Bridge_ubl_is_sortable
  Tie.Gen_ubl_is_forward_only Tie.Bridge_ubl_is_forward_only
  Model.Scan Model.Regex Model.Opt Model.Stream Model.FastLane Tie.RsOpt
  Tie.Gen_fast_try_from Tie.Bridge_fast_try_from Tie.Gen_stream_try_from Tie.Bridge_stream_try_from
  Model.BoundsParse Spec.BoundsGrammar Tie.Gen_ub_from_str Tie.Bridge_ub_from_str
  Tie.Bridge_ubl_unpack Tie.Gen_ubl_complement Tie.Bridge_ubl_complement
  Model.CutBytes Spec.BytesMode Tie.Gen_cut_bytes Tie.Bridge_cut_bytes
  Spec.Fields Proofs.ScanSplit Tie.Gen_fill_fields Tie.Bridge_fill_fields Tie.Gen_compress_delimiter Tie.Bridge_compress_delimiter
  Proofs.C01More Tie.Gen_trim Tie.Bridge_trim
  Tie.Gen_fb_try_from Tie.Bridge_fb_try_from Tie.Gen_print_bof Tie.Bridge_print_bof Tie.Gen_print_rest Tie.Bridge_print_rest Tie.Gen_cut_lines Tie.Bridge_cut_lines Tie.Gen_read_and_cut_bytes Tie.Bridge_read_and_cut_bytes Tie.Gen_get_last_bound Tie.Bridge_get_last_bound Tie.Gen_lines_forward Tie.Bridge_lines_forward
  Proofs.C06 Proofs.PlainMulti Tie.Gen_cut_str Tie.Bridge_cut_str
  Model.Utf8 Model.CutLines Proofs.C03Full Proofs.C05Full Tie.Gen_read_and_cut_lines Tie.Bridge_read_and_cut_lines
  Proofs.C16 Tie.Gen_fill_regex Tie.Bridge_fill_regex Tie.Gen_trim_regex Tie.Bridge_trim_regex Tie.Gen_compress_regex Tie.Bridge_compress_regex
  Proofs.Plain Proofs.C16Replace Tie.RsRegex Tie.Gen_maybe_replace Tie.Bridge_maybe_replace
  Model.CutStr Tie.CutStrFacts Tie.LinesFacts Tie.Gen_fast_cut_record Tie.Bridge_fast_cut_record Proofs.C02
  Proofs.C19 Proofs.C18Iff.
Import ListNotations.
Local Open Scope Z_scope.

(** C13 / C06 / C09: on at most 2^31 - 1 parts the translated [try_into_range] does not panic, fails
    on the bounds that do not resolve, and otherwise returns the 0-based half-open interval from the
    first to the last selected position. *)
Theorem tie_try_into_range_spec : forall (b : ubound) (n : nat),
  Z.of_nat n <= i32_max -> bound_nz b ->
  (gen_ub_try_into_range b (Z.of_nat n) = Ret None /\ ~ resolves b n)
  \/ (exists s e, gen_ub_try_into_range b (Z.of_nat n) = Ret (Some (s, e))
                  /\ resolves b n
                  /\ s = first_pos b (Z.of_nat n) - 1 /\ e = last_pos b (Z.of_nat n)
                  /\ 0 <= s < e /\ e <= Z.of_nat n).
Proof.
  intros b n Hn Hnz. rewrite (tie_ub_try_into_range b n Hn (nz_left b Hnz)).
  destruct (try_into_range b n) as [[s e]|] eqn:E.
  - right. exists (Z.of_nat s), (Z.of_nat e). cbn [range_Z]. split; [reflexivity|].
    destruct (try_into_range_some b n s e Hnz E) as (Hres & Hs & He & Hlt). split; [exact Hres|]. repeat split; lia.
  - left. split; [reflexivity | exact (try_into_range_none b n E)].
Qed.

(** C09: rewriting any in-range negative side -k as n+1-k does not change what the translated
    [try_into_range] returns. *)
Theorem tie_C09_range_unchanged : forall (n : nat) (b b' : ubound),
  Z.of_nat n <= i32_max -> bound_nz b -> bound_nz b' ->
  bound_rewrites (Z.of_nat n) b b' ->
  gen_ub_try_into_range b' (Z.of_nat n) = gen_ub_try_into_range b (Z.of_nat n).
Proof.
  intros n b b' Hn Hb Hb' Hrw.
  rewrite (tie_ub_try_into_range b n Hn (nz_left b Hb)), (tie_ub_try_into_range b' n Hn (nz_left b' Hb')).
  f_equal. f_equal. exact (C09_try_into_range n b b' Hrw).
Qed.

(** C15: the translated [complement_std_range] returns, for a resolved range s < e <= n, the parts
    before it followed by the parts after it, leaving out the empty ones. *)
Theorem tie_C15_complement : forall n s e : nat, (s < e <= n)%nat ->
  gen_complement_std_range (Z.of_nat n) (Z.of_nat s, Z.of_nat e) = Ret (pairs_Z (complement_spec n s e)).
Proof.
  intros n s e H. rewrite tie_complement_std_range. f_equal. f_equal. exact (complement_std_range_spec n s e H).
Qed.

(** C03 / C05: the translated [matches] returns what the model's [matches] returns. *)
Theorem tie_matches_spec : forall (b : ubound) (idx : Z),
  gen_ub_matches b idx = Ret (matches b idx).
Proof. exact tie_ub_matches. Qed.

(** C02 / C05 / C19: the translated comparisons never panic and decide the model's [side_gt], [side_le],
    [bound_le]. *)
Theorem tie_orderings : forall (a b : side) (x y : ubound),
  (exists c, gen_side_partial_cmp a b = Ret c /\ side_gt a b = ord_gt c /\ side_le a b = ord_le c)
  /\ (exists c, gen_ub_partial_cmp x y = Ret c /\ bound_le x y = ord_le c).
Proof. intros. split; [apply tie_side_partial_cmp | apply tie_ub_partial_cmp]. Qed.

(** C08 / C07 / C13: the translated [unpack] turns a bound that resolves to the parts s+1..e into the
    single-part bounds for s+1, s+2, .., e in order, and keeps a bound that does not resolve as it is,
    fallback included. *)
Theorem tie_unpack_spec : forall (b : ubound) (n : nat),
  Z.of_nat n <= i32_max -> bound_nz b ->
  match try_into_range b n with
  | Some (s, e) => gen_ub_unpack b (Z.of_nat n) = Ret (map (fun k => single (Z.of_nat s + 1 + Z.of_nat k)) (seq 0 (e - s)))
  | None => gen_ub_unpack b (Z.of_nat n) = Ret [b]
  end.
Proof.
  intros b n Hn Hnz. rewrite (tie_ub_unpack b n Hn (nz_left b Hnz)). unfold unpack_bound.
  destruct (try_into_range b n) as [[s e]|]; [|reflexivity]. rewrite singles_from_seq. reflexivity.
Qed.

(** C15: the translated [complement] of a bound that resolves to [s, e) on n parts is the bounds for
    the non-empty ones among [0, s) and [e, n), in that order, none of them carrying a fallback; a
    bound that does not resolve has no complement. *)
Theorem tie_C15_complement_of_a_bound : forall (b : ubound) (n : nat),
  Z.of_nat n <= i32_max -> bound_nz b ->
  match try_into_range b n with
  | Some (s, e) => gen_ub_complement b (Z.of_nat n)
                   = Ret (Some (map (fun r => of_range (fst r) (snd r)) (complement_spec n s e)))
  | None => gen_ub_complement b (Z.of_nat n) = Ret None
  end.
Proof.
  intros b n Hn Hnz. rewrite (tie_ub_complement b n Hn (nz_left b Hnz)). unfold complement_bound.
  destruct (try_into_range b n) as [[s e]|] eqn:E; [|reflexivity].
  destruct (try_into_range_some b n s e Hnz E) as (_ & _ & _ & Hlt).
  rewrite (complement_std_range_spec n s e Hlt). reflexivity.
Qed.

(** C03 / C05 / C19: the translated [is_forward_only] never panics, and when it says yes of bounds
    without the index 0, every side of every bound is positive or open. *)
Theorem tie_forward_only_spec : forall u : ublist,
  (exists b, gen_ubl_is_forward_only u = Ret b)
  /\ (gen_ubl_is_forward_only u = Ret true -> Forall item_nz (items u) ->
      Forall (fun b => pos_side (bl b) /\ pos_side (br b)) (bounds_only (items u))).
Proof.
  intros u. rewrite tie_ubl_is_forward_only. split; [eexists; reflexivity|].
  intros H Hnz. apply forward_positive; [congruence | exact Hnz].
Qed.

(** C02: the translated [is_sortable] returns what the model's [is_sortable] returns. *)
Theorem tie_sortable_spec : forall u : ublist, gen_ubl_is_sortable u = Ret (is_sortable (items u)).
Proof. exact tie_ubl_is_sortable. Qed.

(** C19 / C03: the translated [StreamOpt::try_from] accepts an option set exactly under the documented
    conditions for -M. *)
Theorem tie_C19_fixed_memory_eligibility : forall o : opt,
  (exists g, gen_stream_try_from o = Ret (Some g)) <->
  (exists d, o_delim o = [d])
  /\ o_complement o = false /\ o_greedy o = false /\ o_compress o = false /\ o_json o = false
  /\ o_btype o = BFields
  /\ (o_replace o = None \/ exists r, o_replace o = Some [r])
  /\ o_trim o = None /\ o_regex o = None /\ o_only_delimited o = false
  /\ forward_bounds_ok (items (o_bounds o)) = true.
Proof.
  intros o. rewrite tie_stream_try_from. rewrite <- (C19_stream_eligibility o). unfold stream_image.
  destruct (stream_opt o) as [so|]; split; intros H; try (eexists; reflexivity); destruct H; discriminate.
Qed.

(** C02 / C19: the translated [FastOpt::try_from] accepts exactly the option sets of the fast path's
    domain. *)
Theorem tie_C02_fast_path_domain : forall o : opt,
  (exists g, gen_fast_try_from o = Ret (Some g)) <-> fast_eligible o = true.
Proof.
  intros o. rewrite tie_fast_try_from. unfold fast_image. split.
  - intros [g H]. destruct (fast_eligible o); [reflexivity | discriminate].
  - intros H. rewrite H. unfold fast_eligible in H.
    destruct (o_delim o) as [|d l]; [discriminate|]. eexists; reflexivity.
Qed.

(** C18 / C12: on a text shorter than 2^64 - 1 bytes the translated [UserBounds::from_str] never panics,
    and returns the bound [b] exactly when the documented language assigns it to the text ([bound_text],
    Spec/BoundsGrammar.v, written from the documentation). *)
Theorem tie_C18_bound_accepted_iff : forall (s : bytes) (b : ubound),
  Z.of_nat (length s) < usize_max ->
  (gen_ub_from_str s = Ret (Some b) <-> bound_text s b)
  /\ (exists r, gen_ub_from_str s = Ret r).
Proof.
  intros s b H. rewrite (tie_ub_from_str s H). split; [|eexists; reflexivity].
  rewrite <- (parse_bound_iff s b). split; [intros E; injection E as E; exact E | intros ->; reflexivity].
Qed.

(** C15 / C13: the translated [UserBoundsList::complement] returns the model's [complement_list], which
    refuses exactly when no bound is left after every bound has been replaced by its complement (a bound
    that does not resolve stays). *)
Theorem tie_C15_list_complement : forall (u : ublist) (n : nat),
  Z.of_nat n <= i32_max -> Forall item_left_nz (items u) ->
  gen_ubl_complement u (Z.of_nat n) = Ret (complement_list (items u) n)
  /\ (complement_list (items u) n = None <-> bounds_only (complement_items (items u) n) = []).
Proof.
  intros u n Hn Hnz. split; [exact (tie_ubl_complement u n Hn Hnz)|].
  unfold complement_list. destruct (bounds_only (complement_items (items u) n)) as [|b bs] eqn:E.
  - split; reflexivity.
  - unfold from_vec. rewrite E. split; discriminate.
Qed.

(** C06: on a non-empty input of at most 2^31 - 1 bytes and a bounds list that resolves on it, the
    translated [cut_bytes] succeeds and has written [spec_bytes]: the bytes at the selected positions,
    bound by bound in request order, with the format text in between. *)
Theorem tie_C06_byte_mode_exact : forall (data : bytes) (o : opt),
  data <> [] -> Z.of_nat (length data) <= i32_max ->
  Forall item_nz (items (o_bounds o)) ->
  Forall (item_resolves (length data)) (items (o_bounds o)) ->
  gen_cut_bytes data o = Ret (Some tt, spec_bytes (items (o_bounds o)) data).
Proof.
  intros data o Hne Hn Hnz Hres.
  destruct (tie_cut_bytes_model data o Hn (item_nz_left _ Hnz) Hne) as (r & E & Hr). rewrite E. f_equal.
  pose proof (C06_exact (o_bounds o) (o_fallback o) data Hne Hnz Hres) as H6. unfold cut_bytes in H6.
  destruct data as [|d0 data']; [contradiction|].
  destruct (cut_bytes_items (items (o_bounds o)) (o_fallback o) (d0 :: data')) as [out|]; [|discriminate].
  injection H6 as <-. exact Hr.
Qed.

(** C02 / C10: for every option set of the fast path's domain whose bounds [From<Vec>] built from items
    without the index 0, every record of at most 2^31 - 3 bytes and whatever the reused vector of field
    starts holds on entry, the translated [cut_str_fast_lane] writes what the model of the general path
    prints for that record, fails where it fails, and panics only where it panics or hangs. *)
Theorem tie_C02_fast_record_is_the_general_path : forall (o : opt) (l : list bof) (d : byte) (record : bytes) (scratch : list Z),
  fast_eligible o = true -> from_vec l = Some (o_bounds o) -> Forall item_nz l ->
  o_delim o = [d] -> Z.of_nat (length record) + 2 <= i32_max ->
  match cut_str o record with
  | Some r => of_rres_partial r (gen_fast_cut_record record (gf_of o d) scratch (lif (o_bounds o)))
  | None => False
  end.
Proof.
  intros o l d record scratch He Hv Hnz Hd Hlen.
  rewrite (C02_record o l record He Hv Hnz).
  apply tie_fast_cut_record; [exact Hd | exact Hlen |].
  (* the bounds of the list are the parsed ones, with the last one marked: their left sides are not 0 *)
  apply item_nz_left, (from_vec_nz l _ Hnz Hv).
Qed.

(** C01 / C10: whatever the reused vector holds on entry, the translated [fill_with_fields_locations]
    fills it with byte ranges that cut a non-empty record into the fields of the statement ([is_split]:
    the leftmost non-overlapping occurrences of the delimiter as separators). *)
Theorem tie_C01_fields_locations : forall (scratch : list (Z * Z)) (d line : bytes),
  d <> [] -> line <> [] -> Z.of_nat (length line) + Z.of_nat (length d) <= usize_max ->
  exists table : list mtch,
    gen_fill_fields scratch line d = Ret (tt, map mz table)
    /\ is_split d line (pieces line table).
Proof.
  intros scratch d line Hd Hl Hlen. exists (fields_of_matches (lit_matches d line) line).
  split; [apply tie_fill_fields; exact Hlen | apply fields_locations_are_fields; assumption].
Qed.

Theorem tie_C10_compress_ignores_its_buffer : forall (line d b1 b2 : bytes),
  Z.of_nat (length line) + Z.of_nat (length d) <= usize_max ->
  gen_compress_delimiter line d b1 = gen_compress_delimiter line d b2.
Proof. intros. rewrite !tie_compress_delimiter by assumption. reflexivity. Qed.

(** C01 (-t): the translated [trim] removes from the left end whole copies of the delimiter and nothing
    else, until the text does not start with one. *)
Theorem tie_C01_trim_left : forall (buffer d : bytes),
  d <> [] -> Z.of_nat (length buffer) + Z.of_nat (length d) <= usize_max ->
  exists (k : nat) (rest : bytes),
    gen_trim buffer TLeft d = Ret rest /\ buffer = copies d k ++ rest /\ strip_prefix d rest = None.
Proof.
  intros buffer d Hd Hlen. destruct (trim_left_spec d buffer Hd) as (k & E1 & E2).
  exists k, (trim_left d buffer). split; [rewrite (tie_trim buffer TLeft d Hlen); reflexivity | split; assumption].
Qed.

Theorem tie_C01_trim_right : forall (buffer d : bytes),
  d <> [] -> Z.of_nat (length buffer) + Z.of_nat (length d) <= usize_max ->
  exists (k : nat) (rest : bytes),
    gen_trim buffer TRight d = Ret rest /\ buffer = rest ++ copies d k /\ (forall x, rest <> x ++ d).
Proof.
  intros buffer d Hd Hlen. destruct (trim_right_spec d buffer Hd) as (k & E1 & E2).
  exists k, (trim_right d buffer). split; [rewrite (tie_trim buffer TRight d Hlen); reflexivity | split; assumption].
Qed.

(** C16: with -e RE -r R, without -p, the translated [maybe_replace_delimiter] returns the fields of a
    selected text joined by the literal R. *)
Theorem tie_C16_selected_text_is_rejoined_with_R : forall (o : opt) (x : rx) (nd text : bytes) (ms : list mtch),
  o_btype o <> BChars -> o_replace o = Some nd -> o_regex o = Some x -> o_compress o = false ->
  rx_normal x text = Some ms ->
  gen_maybe_replace text o = Ret (intercalate nd (pieces text (gaps_from 0 ms (length text)))).
Proof.
  intros o x nd text ms Hb Hr Hx Hc Hm. apply tie_maybe_replace.
  apply (maybe_replace_regex_is_intercalate o x nd text ms); assumption.
Qed.

(** C16: after -p, which has rewritten the runs already, it returns the text as it is. *)
Theorem tie_C16_after_compress_printed_as_it_is : forall (o : opt) (x : rx) (nd text : bytes),
  o_replace o = Some nd -> o_regex o = Some x -> o_compress o = true -> gen_maybe_replace text o = Ret text.
Proof. intros o x nd text Hr Hx Hc. apply tie_maybe_replace. apply (maybe_replace_after_compress o x nd text); assumption. Qed.

(** C01: with a literal delimiter and -r R it joins the fields with R. *)
Theorem tie_C01_literal_replacement : forall (o : opt) (nd text : bytes),
  o_btype o <> BChars -> o_replace o = Some nd -> o_regex o = None ->
  gen_maybe_replace text o
  = Ret (intercalate nd (pieces text (gaps_from 0 (lit_matches (o_delim o) text) (length text)))).
Proof.
  intros o nd text Hb Hr Hx. apply tie_maybe_replace. unfold maybe_replace. rewrite Hr, Hx, replace_matches_is_intercalate.
  destruct (o_btype o); try reflexivity. exfalso. apply Hb. reflexivity.
Qed.

(** C19 / C03: on a list that holds a bound, the translated [ForwardBounds::try_from] accepts exactly when
    the model's test does, which stands for it in [gen_stream_try_from]. *)
Theorem tie_C19_forward_bounds_test : forall u : ublist, bounds_only (items u) <> [] ->
  ((exists fb, gen_fb_try_from u = Ret (Some fb)) <-> (exists v, model_forward_try_from u = Ret (Some v))).
Proof.
  intros u Hb. rewrite (tie_fb_try_from_accepts u Hb). unfold model_forward_try_from.
  destruct (forward_bounds_ok (items u)); split; intros H; try reflexivity; try (eexists; reflexivity);
    first [discriminate H | destruct H as [v H]; discriminate H].
Qed.

(** C16: with -e RE the translated [fill_with_fields_locations_using_regex] fills the buffer, whatever it
    held, with the gaps between the matches of RE (-g: of (RE)+, the maximal runs). *)
Theorem tie_C16_fields_are_the_gaps : forall (buffer0 : list (Z * Z)) (line : bytes) (r : re),
  gen_fill_regex buffer0 line (rb_normal (RxRe r)) = Ret (tt, map mzz (fields_of_matches (re_find_iter r line) line)) /\
  gen_fill_regex buffer0 line (rb_greedy (RxRe r)) = Ret (tt, map mzz (fields_of_matches (re_find_iter (RPlus r) line) line)).
Proof. intros buffer0 line r. split; apply tie_fill_regex; reflexivity. Qed.

(** C16 (-t): on the matches of (RE)+ the translated [trim_regex] returns the model's [trim_matches]: the
    first match goes only when it starts the record, the last one only when it ends it. *)
Theorem tie_C16_trim : forall (line : bytes) (k : trimk) (r : re),
  gen_trim_regex line k (rb_greedy (RxRe r)) = Ret (trim_matches k (re_find_iter (RPlus r) line) line).
Proof.
  intros line k r. apply tie_trim_regex; [reflexivity|]. apply (proj1 (re_matches_wf (RPlus r) line)).
Qed.

(** C16 (-p with -r R): the translated [compress_delimiter_with_regex] returns the record's greedy fields
    joined by the literal R. *)
Theorem tie_C16_compress_rewrites_runs : forall (line nd : bytes) (r : re),
  gen_compress_regex line (rb_greedy (RxRe r)) nd
  = Ret (intercalate nd (pieces line (gaps_from 0 (re_find_iter (RPlus r) line) (length line)))).
Proof.
  intros line nd r. rewrite (tie_compress_regex line nd (rb_greedy (RxRe r)) (re_find_iter (RPlus r) line)); [|reflexivity].
  rewrite replace_matches_is_intercalate. reflexivity.
Qed.

(** C01: for every non-empty literal delimiter and every combination of -t, -p, -s, -m, -j, -r, format
    text and fallbacks (no -g, no --json), whatever the scratch buffers held, the translated [cut_str]
    (src/cut_str.rs) writes the record as the function of its fields that the statement describes, and
    fails where that fails. *)
Theorem tie_C01_record_as_a_function_of_its_fields :
  forall (o : opt) (line0 : bytes) (fields0 : list (Z * Z)) (buf0 : list byte),
    value_opts o -> Forall item_nz (items (o_bounds o)) ->
    Z.of_nat (length line0) + Z.of_nat (length (o_delim o)) <= usize_max ->
    Z.of_nat (length (line2 o (line1 o line0))) + Z.of_nat (length (o_delim o)) <= usize_max ->
    Z.of_nat (length (line2 o (line1 o line0))) + 2 <= i32_max ->
    of_rres_cut
      (Some (let line1 := match o_trim o with Some k => trim_lit k (o_delim o) line0 | None => line0 end in
             match line1 with
             | [] => ROk (if o_only_delimited o then [] else [o_eol o])
             | _ =>
                 let fs := if o_compress o then squeeze (split (o_delim o) line1) else split (o_delim o) line1 in
                 if o_only_delimited o && Nat.eqb (length fs) 1 then ROk []
                 else match effective_bounds o (length fs) with
                      | None => RErr
                      | Some bs =>
                          match spec_items fs (o_fallback o) (o_join o) (rep_of' o) bs with
                          | Some x => ROk (x ++ [o_eol o])
                          | None => RErr
                          end
                      end
             end))
      (gen_cut_str line0 o fields0 buf0 [o_eol o]).
Proof.
  intros o line0 fields0 buf0 Hv Hnz H0 H2 Hf.
  rewrite <- (general_record_value o line0 Hv Hnz).
  destruct Hv as (Hd & Hre & Hj & Hb & Hg).
  apply tie_cut_str_literal; try assumption. rewrite Hb. discriminate.
Qed.

(** C10: where the model's run succeeds, what the translated [cut_str] returns does not depend on what the
    two scratch buffers held. *)
Theorem tie_C10_cut_str_ignores_its_buffers :
  forall (o : opt) (line0 : bytes) (f1 f2 : list (Z * Z)) (b1 b2 : list byte) (out : bytes),
    o_regex o = None -> o_btype o <> BChars ->
    Forall item_nz (items (o_bounds o)) ->
    Z.of_nat (length line0) + Z.of_nat (length (o_delim o)) <= usize_max ->
    Z.of_nat (length (line2 o (line1 o line0))) + Z.of_nat (length (o_delim o)) <= usize_max ->
    Z.of_nat (length (line2 o (line1 o line0))) + 2 <= i32_max ->
    cut_str o line0 = Some (ROk out) ->
    gen_cut_str line0 o f1 b1 [o_eol o] = gen_cut_str line0 o f2 b2 [o_eol o].
Proof.
  intros o line0 f1 f2 b1 b2 out Hre Hb Hnz H0 H2 Hf E.
  pose proof (tie_cut_str_literal o line0 f1 b1 Hre Hb Hnz H0 H2 Hf) as A.
  pose proof (tie_cut_str_literal o line0 f2 b2 Hre Hb Hnz H0 H2 Hf) as B.
  rewrite E in A, B. cbn [of_rres_cut] in A, B. rewrite A, B. reflexivity.
Qed.

(** C16: with -e RE (a regex of the modelled family) and any of -t -p -g -s -m --json -j -r, format text
    and fallbacks, the translated [cut_str], with the translated regex trimmer, compressor and splitter it
    calls, agrees with the model's [cut_str] ([of_rres_cut]): the same output where that succeeds, failure
    where it fails (in particular -p or -j without -r), a panic where it panics. *)
Theorem tie_C16_general_path : forall (o : opt) (r : re) (line0 : bytes) (fields0 : list (Z * Z)) (buf0 : list byte),
  o_regex o = Some (RxRe r) -> o_btype o <> BChars -> Forall item_nz (items (o_bounds o)) ->
  (forall nd, o_replace o = Some nd ->
     Z.of_nat (length (rline2 o r (rline1 o r line0))) + Z.of_nat (length nd) <= usize_max) ->
  Z.of_nat (length (rfields o r (rline1 o r line0))) <= i32_max ->
  of_rres_cut (cut_str o line0) (gen_cut_str line0 o fields0 buf0 [o_eol o]).
Proof. exact tie_cut_str_regex. Qed.

(** C07: with -c, without -t, on a record that is valid UTF-8, the translated [cut_str] agrees with the
    model's [cut_str] ([of_rres_cut]), for every combination of -s -m --json -j -r, format text and
    fallbacks. *)
Theorem tie_C07_general_path : forall (o : opt) (line0 : bytes) (ms : list mtch) (fields0 : list (Z * Z)) (buf0 : list byte),
  o_regex o = Some RxChars -> o_btype o = BChars -> o_trim o = None ->
  Forall item_nz (items (o_bounds o)) ->
  char_matches line0 = Some ms ->
  Z.of_nat (length (drop_outer (fields_of_matches ms line0))) <= i32_max ->
  of_rres_cut (cut_str o line0) (gen_cut_str line0 o fields0 buf0 [o_eol o]).
Proof. exact tie_cut_str_chars. Qed.

(** C03 / C04: the translated [print_bof], the step of the -M path at every delimiter, EOL and chunk end,
    writes what the model's [print_bof] writes for the piece of the chunk it is given and returns the index
    past the items the model consumes. *)
Theorem tie_C04_print_bof_step : forall (g : gsopt) (i : nat) (curr : Z) (chunk : bytes) (a b : nat) (trunc complete : bool),
  Z.of_nat i + 2 <= usize_max -> (a <= b)%nat -> (b <= length chunk)%nat ->
  (forall bd, pending (skipn i (items (gs_bounds g))) = Some bd -> matches bd curr <> None) ->
  gen_print_bof g (Z.of_nat i) curr chunk (Z.of_nat a) (Z.of_nat b) trunc complete
  = let '(out, its') := print_bof (so_of g) (skipn i (items (gs_bounds g))) curr (slice chunk a b) trunc complete in
    Ret (Some (Z.of_nat (i + (length (skipn i (items (gs_bounds g))) - length its'))), out).
Proof. intros g i curr chunk a b trunc complete H1 H2 H3 H4. exact (tie_print_bof g i curr chunk a b trunc complete H1 H2 H3 H4). Qed.

(** C13: at the end of a record of the -M path the translated [print_filler_or_fallbacks] writes the
    model's [pff] for the pending items - fillers verbatim, a bound's own fallback, else the generic one,
    nothing for an open range that has started - and fails where [pff] has none. *)
Theorem tie_C13_pending_bounds_at_record_end : forall (g : gsopt) (i : nat) (n : Z),
  (i <= length (items (gs_bounds g)))%nat ->
  Forall (comparable n) (skipn i (items (gs_bounds g))) ->
  match pff (so_of g) (skipn i (items (gs_bounds g))) n with
  | Some t => gen_print_rest (Z.of_nat i) g n = Ret (Some tt, t)
  | None => exists p, gen_print_rest (Z.of_nat i) g n = Ret (None, p)
  end.
Proof. exact tie_print_rest. Qed.

(** C05: under plain options (no -t -s -r), on a valid UTF-8 input of at most 2^31 - 3 bytes and for a
    request that resolves, the whole-input algorithm of -l (the translated [cut_lines] calling the
    translated [cut_str]) prints the selection of the statement. *)
Theorem tie_C05_buffered_reader : forall (o : opt) (input : bytes) (bs : list bof) (x : bytes),
  plain_opts o (o_eol o) -> o_trim o = None -> o_only_delimited o = false -> o_replace o = None ->
  items (o_bounds o) = bs -> Forall item_nz bs ->
  utf8_valid input = true -> input <> [] -> strip_one_suffix (o_eol o) input <> [] ->
  spec_items (records (o_eol o) input) (o_fallback o) (o_join o) [o_eol o] bs = Some x ->
  Z.of_nat (length input) + 2 <= i32_max ->
  gen_cut_lines input o = Ret (Some tt, x ++ [o_eol o]).
Proof.
  intros o input bs x Hp Ht Hs Hr Hb Hnz Hv Hi Hst Hx Hlen.
  pose proof (C05_buffered_same o input bs x Hp Ht Hs Hr Hb Hnz Hv Hi Hst Hx) as E.
  destruct Hp as (Hd & Hre & Hj & Hbt & Hc & Hg & Hcp).
  pose proof (strip_one_suffix_length (o_eol o) input) as Hl.
  set (l' := strip_one_suffix (o_eol o) input) in *.
  assert (E1 : line1 o l' = l') by (unfold line1; rewrite Ht; reflexivity).
  assert (E2 : line2 o l' = l') by (unfold line2, compresses; rewrite Hcp; reflexivity).
  assert (H : of_rres_cut (cut_str o l') (gen_cut_str l' o [] [] [o_eol o])).
  { apply tie_cut_str_literal; try assumption.
    - intros Ec. rewrite Ec in Hbt. discriminate.
    - rewrite <- Hb in Hnz. exact Hnz.
    - rewrite Hd. cbn [length]. unfold usize_max, i32_max in *. lia.
    - rewrite E1, E2, Hd. cbn [length]. unfold usize_max, i32_max in *. lia.
    - rewrite E1, E2. unfold RsPrelude.i32_max, i32_max in *. lia. }
  pose proof (tie_cut_lines input o H) as T. rewrite E in T. exact T.
Qed.

(** C06 from the input to the output: on a non-empty input of at most 2^31 - 1 bytes and a bounds list
    that resolves on it, the translated [read_and_cut_bytes] succeeds and has written [spec_bytes]. *)
Theorem tie_C06_whole_byte_mode : forall (input : bytes) (o : opt),
  input <> [] -> Z.of_nat (length input) <= i32_max ->
  Forall item_nz (items (o_bounds o)) ->
  Forall (item_resolves (length input)) (items (o_bounds o)) ->
  gen_read_and_cut_bytes input o = Ret (Some tt, spec_bytes (items (o_bounds o)) input).
Proof. intros input o H1 H2 H3 H4. rewrite tie_read_and_cut_bytes. apply tie_C06_byte_mode_exact; assumption. Qed.

(** C19 / C03: on what the translated [ForwardBounds::try_from] builds, the translated [get_last_bound]
    returns a bound of the list - its "Invariant error" `panic!` is not reached. *)
Theorem tie_C19_last_bound_invariant : forall (u : ublist) (fb : gfb),
  bounds_only (items u) <> [] -> gen_fb_try_from u = Ret (Some fb) ->
  exists b, gen_get_last_bound fb = Ret b /\ In (Bound b) (items (fb_list fb)).
Proof. exact tie_get_last_bound. Qed.

(** C13 / C05: once the input is exhausted, the translated one-line-at-a-time reader (from its stage
    [gen_lines_forward_s5]) appends the model's [fwd_finish] for the pending items and one EOL, and fails
    where [fwd_finish] has none. *)
Theorem tie_C13_lines_forward_finish : forall (o : opt) (sin out lb : bytes) (li : Z) (i : nat) (an : bool),
  (i <= length (items (o_bounds o)))%nat -> Z.of_nat (length (items (o_bounds o))) + 1 <= usize_max ->
  (an = true -> exists b, nth_error (items (o_bounds o)) i = Some (Bound b)) ->
  match fwd_finish o (skipn i (items (o_bounds o))) an with
  | Some r => gen_lines_forward_s5 sin out o lb li (Z.of_nat i) an = Ret (Some tt, out ++ r ++ [o_eol o])
  | None => exists p, gen_lines_forward_s5 sin out o lb li (Z.of_nat i) an = Ret (None, p)
  end.
Proof. exact tie_lines_forward_finish. Qed.

(** C05: for an input of at most 2^31 - 2 bytes whose lines are valid UTF-8, a terminator below 128 (LF
    or NUL: a line is valid with it as without it) and an ascending request that resolves on it, the
    translated one-line-at-a-time reader prints the selection of the statement. *)
Theorem tie_C05_forward_reader : forall (o : opt) (input : bytes) (x : bytes),
  records (o_eol o) input <> [] -> items (o_bounds o) <> [] ->
  fwd_ok 1 (Z.of_nat (length (records (o_eol o) input))) (items (o_bounds o)) -> last_marked (items (o_bounds o)) ->
  Forall (fun l => utf8_valid l = true) (records (o_eol o) input) ->
  (o_eol o < 128)%N ->
  Z.of_nat (length (items (o_bounds o))) + 1 <= usize_max -> Z.of_nat (length input) + 1 <= RsPrelude.i32_max ->
  spec_items (records (o_eol o) input) (o_fallback o) (o_join o) [o_eol o] (items (o_bounds o)) = Some x ->
  gen_lines_forward input o = Ret (Some tt, x ++ [o_eol o]).
Proof.
  intros o input x Hl Hb Hok Hlm Hu Hu2 Hn Hlen Hx.
  destruct (C05_forward o (records (o_eol o) input) (items (o_bounds o)) Hl Hb Hok Hlm Hu) as (x' & E1 & E2).
  rewrite Hx in E1. injection E1 as <-.
  pose proof (tie_lines_forward_whole o input Hb Hn Hlen Hu2) as T. rewrite E2 in T. exact T.
Qed.

(** C05: under the hypotheses of both readers, whichever of them the translated [read_and_cut_lines] picks,
    what is printed is the selection of the statement. *)
Theorem tie_C05_whichever_algorithm : forall (o : opt) (input : bytes) (x : bytes),
  plain_opts o (o_eol o) -> o_trim o = None -> o_only_delimited o = false -> o_replace o = None ->
  Forall item_nz (items (o_bounds o)) -> items (o_bounds o) <> [] ->
  fwd_ok 1 (Z.of_nat (length (records (o_eol o) input))) (items (o_bounds o)) -> last_marked (items (o_bounds o)) ->
  Forall (fun l => utf8_valid l = true) (records (o_eol o) input) -> records (o_eol o) input <> [] ->
  (o_eol o < 128)%N ->
  utf8_valid input = true -> input <> [] -> strip_one_suffix (o_eol o) input <> [] ->
  Z.of_nat (length (items (o_bounds o))) + 1 <= usize_max -> Z.of_nat (length input) + 2 <= RsPrelude.i32_max ->
  spec_items (records (o_eol o) input) (o_fallback o) (o_join o) [o_eol o] (items (o_bounds o)) = Some x ->
  gen_read_and_cut_lines input o = Ret (Some tt, x ++ [o_eol o]).
Proof.
  intros o input x Hp Ht Hs Hr Hnz Hne Hok Hlm Hu Hl Hu2 Hv Hi Hst Hn Hlen Hx.
  rewrite tie_read_and_cut_lines. destruct (can_be_streamed o).
  - apply tie_C05_forward_reader; try assumption. unfold RsPrelude.i32_max in *. lia.
  - apply (tie_C05_buffered_reader o input (items (o_bounds o)) x); try assumption; reflexivity.
Qed.

Print Assumptions tie_try_into_range_spec.
Print Assumptions tie_C05_whichever_algorithm.
Print Assumptions tie_C05_forward_reader.
Print Assumptions tie_C13_lines_forward_finish.
Print Assumptions tie_C19_last_bound_invariant.
Print Assumptions tie_C06_whole_byte_mode.
Print Assumptions tie_C05_buffered_reader.
Print Assumptions tie_C13_pending_bounds_at_record_end.
Print Assumptions tie_C04_print_bof_step.
Print Assumptions tie_C07_general_path.
Print Assumptions tie_C16_general_path.
Print Assumptions tie_C01_record_as_a_function_of_its_fields.
Print Assumptions tie_C10_cut_str_ignores_its_buffers.
Print Assumptions tie_C16_compress_rewrites_runs.
Print Assumptions tie_C16_fields_are_the_gaps.
Print Assumptions tie_C16_trim.
Print Assumptions tie_C19_forward_bounds_test.
Print Assumptions tie_C16_selected_text_is_rejoined_with_R.
Print Assumptions tie_C16_after_compress_printed_as_it_is.
Print Assumptions tie_C01_literal_replacement.
Print Assumptions tie_C01_trim_left.
Print Assumptions tie_C01_trim_right.
Print Assumptions tie_C01_fields_locations.
Print Assumptions tie_C10_compress_ignores_its_buffer.
Print Assumptions tie_C02_fast_record_is_the_general_path.
Print Assumptions tie_C06_byte_mode_exact.
Print Assumptions tie_C15_list_complement.
Print Assumptions tie_C18_bound_accepted_iff.
Print Assumptions tie_C19_fixed_memory_eligibility.
Print Assumptions tie_C02_fast_path_domain.
Print Assumptions tie_forward_only_spec.
Print Assumptions tie_sortable_spec.
Print Assumptions tie_unpack_spec.
Print Assumptions tie_C15_complement_of_a_bound.
Print Assumptions tie_C09_range_unchanged.
Print Assumptions tie_C15_complement.
Print Assumptions tie_matches_spec.
Print Assumptions tie_orderings.
