(** [trim] (src/cut_str.rs, the literal-delimiter trimmer), as translated, returns the model's [trim_lit]
    when `buffer.len() + delimiter.len()` fits a usize (`idx += delimiter.len()`): the two `while` loops
    end within the fuel (the length of the text plus one), and no slicing or index update panics. *)
From TucModel Require Import Base.Bytes Base.ListX Model.Scan Proofs.ScanSplit Tie.RsPrelude Tie.RsStr Tie.RsScan
  Tie.RsFacts Tie.Gen_trim.
Import ListNotations.
Local Open Scope Z_scope.

Section Left.
  Variables (buf d : bytes).

  Fixpoint left_idx (n i : nat) : nat :=
    match n with
    | O => i
    | S f => if starts_with d (skipn i buf) then left_idx f (i + length d) else i
    end.

  Lemma left_idx_spec : forall n i, skipn (left_idx n i) buf = trim_left_fuel n d (skipn i buf).
  Proof.
    induction n as [|n IH]; intros i; cbn [left_idx trim_left_fuel]; [reflexivity|].
    unfold starts_with. destruct (strip_prefix d (skipn i buf)) as [r|] eqn:E; [|reflexivity].
    rewrite IH. f_equal. apply strip_prefix_some in E.
    rewrite Nat.add_comm, <- skipn_skipn', E. apply skipn_app_length.
  Qed.

  Lemma left_idx_le : forall n i, (i <= length buf)%nat -> (i <= left_idx n i <= length buf)%nat.
  Proof.
    induction n as [|n IH]; intros i Hi; cbn [left_idx]; [lia|].
    destruct (starts_with d (skipn i buf)) eqn:E; [|lia].
    apply starts_with_length in E. rewrite skipn_length in E.
    specialize (IH (i + length d)%nat). lia.
  Qed.

  Lemma left_loop {St R} (emb : nat -> St) (cond : St -> rs bool) (body : St -> rs (ctrl St R)) :
    (1 <= length d)%nat ->
    (forall i, (i <= length buf)%nat -> cond (emb i) = Ret (starts_with d (skipn i buf))) ->
    (forall i, (i <= length buf)%nat -> body (emb i) = Ret (Next (emb (i + length d)%nat))) ->
    forall n i, (i <= length buf)%nat -> (length buf - i <= n)%nat ->
      whileM (S n) cond body (emb i) = Ret (Next (emb (left_idx n i))).
  Proof.
    intros Hd Hc Hb. induction n as [|n IH]; intros i Hi Hn; cbn [whileM left_idx]; rewrite Hc by exact Hi.
    all: destruct (starts_with d (skipn i buf)) eqn:E; cbn [bind]; [|reflexivity].
    all: apply starts_with_length in E; rewrite skipn_length in E.
    - exfalso. lia.
    - rewrite Hb by exact Hi. cbn [bind]. apply IH; lia.
  Qed.
End Left.

Section Right.
  Variables (buf d : bytes) (i0 : nat).

  Fixpoint right_idx (n r : nat) : nat :=
    match n with
    | O => r
    | S f => if ends_with d (slice buf i0 r) then right_idx f (r - length d) else r
    end.

  Lemma slice_length (a b : nat) : (a <= b <= length buf)%nat -> length (slice buf a b) = (b - a)%nat.
  Proof. intros H. unfold slice. rewrite firstn_length, skipn_length. lia. Qed.

  Lemma right_idx_spec : forall n r, (i0 <= r <= length buf)%nat ->
    (i0 <= right_idx n r <= r)%nat
    /\ slice buf i0 (right_idx n r) = rev (trim_left_fuel n (rev d) (rev (slice buf i0 r))).
  Proof.
    induction n as [|n IH]; intros r Hr; cbn [right_idx trim_left_fuel]; [rewrite rev_involutive; split; [lia | reflexivity]|].
    unfold ends_with, starts_with. destruct (strip_prefix (rev d) (rev (slice buf i0 r))) as [q|] eqn:E.
    2:{ rewrite rev_involutive. split; [lia | reflexivity]. }
    apply strip_prefix_some in E.
    assert (Esl : slice buf i0 r = rev q ++ d).
    { rewrite <- (rev_involutive (slice buf i0 r)), E, rev_app_distr, rev_involutive. reflexivity. }
    assert (Hlen : (r - i0 = length q + length d)%nat).
    { rewrite <- (slice_length i0 r Hr), Esl, app_length, rev_length. reflexivity. }
    assert (Eshort : slice buf i0 (r - length d) = rev q).
    { unfold slice in *. replace (r - length d - i0)%nat with (length (rev q)) by (rewrite rev_length; lia).
      rewrite <- (firstn_app_length (rev q) d) at 2. rewrite <- Esl.
      rewrite firstn_firstn. f_equal. rewrite rev_length. lia. }
    destruct (IH (r - length d)%nat) as [Hb Hs]; [lia|]. split; [lia|].
    rewrite Hs, Eshort, rev_involutive. reflexivity.
  Qed.

  Lemma right_loop {St R} (emb : nat -> St) (cond : St -> rs bool) (body : St -> rs (ctrl St R)) :
    (1 <= length d)%nat ->
    (forall r, (i0 <= r <= length buf)%nat -> cond (emb r) = Ret (ends_with d (slice buf i0 r))) ->
    (forall r, (length d <= r <= length buf)%nat -> body (emb r) = Ret (Next (emb (r - length d)%nat))) ->
    forall n r, (i0 <= r <= length buf)%nat -> (r - i0 <= n)%nat ->
      whileM (S n) cond body (emb r) = Ret (Next (emb (right_idx n r))).
  Proof.
    intros Hd Hc Hb. induction n as [|n IH]; intros r Hr Hn; cbn [whileM right_idx]; rewrite Hc by exact Hr.
    all: destruct (ends_with d (slice buf i0 r)) eqn:E; cbn [bind]; [|reflexivity].
    all: unfold ends_with in E; apply starts_with_length in E; rewrite !rev_length, (slice_length i0 r Hr) in E.
    - exfalso. lia.
    - rewrite Hb by lia. cbn [bind]. apply IH; lia.
  Qed.
End Right.

Lemma tlf_stable d : (1 <= length d)%nat -> forall n m l, (length l <= n)%nat -> (length l <= m)%nat ->
  trim_left_fuel n d l = trim_left_fuel m d l.
Proof.
  intros Hd. induction n as [|n IH]; intros [|m] l Hn Hm; cbn [trim_left_fuel]; try reflexivity.
  all: destruct (strip_prefix d l) as [r|] eqn:E; [|reflexivity].
  all: apply strip_prefix_some in E; subst l; rewrite app_length in Hn, Hm.
  - exfalso. lia.
  - exfalso. lia.
  - apply IH; lia.
Qed.

Lemma trim_left_fuelled d l : (1 <= length d)%nat -> trim_left d l = trim_left_fuel (length l) d l.
Proof. intros Hd. destruct d; [cbn in Hd; lia | reflexivity]. Qed.

Lemma trim_right_fuelled d n l : (1 <= length d)%nat -> (length l <= n)%nat ->
  trim_right d l = rev (trim_left_fuel n (rev d) (rev l)).
Proof.
  intros Hd Hn. unfold trim_right. rewrite trim_left_fuelled by (rewrite rev_length; exact Hd).
  f_equal. apply tlf_stable; rewrite rev_length; lia.
Qed.

Lemma str_to_slice (s : bytes) (r : nat) : (r <= length s)%nat -> str_to s (Z.of_nat r) = Ret (slice s 0 r).
Proof. intros H. rewrite str_to_ok by exact H. unfold slice. rewrite Nat.sub_0_r. reflexivity. Qed.

Lemma tie_trim : forall (buffer : bytes) (k : trimk) (d : bytes),
  Z.of_nat (length buffer) + Z.of_nat (length d) <= usize_max ->
  gen_trim buffer k d = Ret (trim_lit k d buffer).
Proof.
  intros buffer k d Hmax. cbv beta delta [gen_trim] iota zeta.
  destruct d as [|c0 d'] eqn:Ed.
  { cbv iota beta. destruct k; unfold trim_lit, trim_right, trim_left; cbn [rev]; rewrite ?rev_involutive; reflexivity. }
  rewrite <- Ed in *. assert (Hld : (1 <= length d)%nat) by (rewrite Ed; cbn [length]; lia).
  replace (match d with [] => true | _ => false end) with false by (rewrite Ed; reflexivity). cbv iota beta.
  assert (Hleft : skipn (left_idx buffer d (length buffer) 0) buffer = trim_left d buffer).
  { rewrite left_idx_spec, trim_left_fuelled by exact Hld. reflexivity. }
  pose proof (left_idx_le buffer d (length buffer) 0 ltac:(lia)) as Hli.
  destruct k; cbv iota beta; unfold trim_lit.
  - change 0 with (Z.of_nat 0).
    rewrite (left_loop buffer d Z.of_nat) with (n := length buffer) (i := 0%nat); try lia.
    + cbn [bind]. rewrite str_from_ok by lia. cbn [bind]. rewrite Hleft. reflexivity.
    + intros i Hi. cbv beta. rewrite str_from_ok by exact Hi. reflexivity.
    + intros i Hi. cbv beta. rewrite usize_add_of_nat by lia. reflexivity.
  - rewrite (right_loop buffer d 0 Z.of_nat) with (n := length buffer) (r := length buffer); try lia.
    + cbn [bind]. destruct (right_idx_spec buffer d 0 (length buffer) (length buffer) ltac:(lia)) as [Hb Hs].
      rewrite str_to_slice by lia. cbn [bind]. rewrite Hs, slice_full, (trim_right_fuelled d (length buffer)) by lia. reflexivity.
    + intros r Hr. cbv beta. rewrite str_to_slice by lia. reflexivity.
    + intros r Hr. cbv beta. rewrite usize_sub_of_nat by lia. reflexivity.
  - set (j := left_idx buffer d (length buffer) 0) in *.
    change 0 with (Z.of_nat 0).
    rewrite (left_loop buffer d (fun i => (Z.of_nat i, Z.of_nat (length buffer)))) with (n := length buffer) (i := 0%nat); try lia.
    + cbn [bind]. fold j.
      rewrite (right_loop buffer d j (fun r => (Z.of_nat j, Z.of_nat r))) with (n := length buffer) (r := length buffer); try lia.
      * cbn [bind]. destruct (right_idx_spec buffer d j (length buffer) (length buffer) ltac:(lia)) as [Hb Hs].
        rewrite str_between_ok by lia. cbn [bind]. rewrite Hs, slice_to_end, Hleft.
        rewrite (trim_right_fuelled d (length buffer)); [reflexivity | exact Hld |].
        rewrite <- Hleft, skipn_length. lia.
      * intros r Hr. cbv beta iota. rewrite str_between_ok by lia. reflexivity.
      * intros r Hr. cbv beta iota. rewrite usize_sub_of_nat by lia. reflexivity.
    + intros i Hi. cbv beta iota. rewrite str_from_ok by exact Hi. reflexivity.
    + intros i Hi. cbv beta iota. rewrite usize_add_of_nat by lia. reflexivity.
Qed.
