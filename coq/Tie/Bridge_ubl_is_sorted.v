(** [UserBoundsList::is_sorted], as translated, is the model's (`prev_b <= Some(b)` goes through
    [partial_cmp]). *)
From TucModel Require Import Base.Bytes Model.Bounds Tie.RsPrelude
  Tie.Gen_ub_partial_cmp Tie.Bridge_ub_partial_cmp
  Tie.Bridge_ubl_bounds_only Tie.Gen_ubl_is_sorted.
Import ListNotations.
Local Open Scope Z_scope.

Lemma opt_le_some a b : opt_le_with gen_ub_partial_cmp (Some a) (Some b) = Ret (bound_le a b).
Proof.
  unfold opt_le_with. destruct (tie_ub_partial_cmp a b) as (c & E & H). rewrite E. cbn [bind]. rewrite H.
  destruct c as [[| |]|]; reflexivity.
Qed.

Fixpoint last_b (p : ubound) (bs : list ubound) : ubound := match bs with [] => p | b :: bs' => last_b b bs' end.

Lemma loopM_sorted (F : option ubound -> ubound -> rs (ctrl (option ubound) bool)) :
  (forall p b, F (Some p) b = Ret (if bound_le p b then Next (Some b) else Break false)) ->
  forall bs p, loopM F bs (Some p) = Ret (if is_sorted_from p bs then Next (Some (last_b p bs)) else Break false).
Proof.
  intros HS bs. induction bs as [|b bs IH]; intros p; cbn [loopM is_sorted_from last_b]; [reflexivity|].
  rewrite HS. destruct (bound_le p b); cbn [bind]; [apply IH | reflexivity].
Qed.

Lemma loopM_sorted_all (F : option ubound -> ubound -> rs (ctrl (option ubound) bool)) :
  (forall b, F None b = Ret (Next (Some b))) ->
  (forall p b, F (Some p) b = Ret (if bound_le p b then Next (Some b) else Break false)) ->
  forall bs, loopM F bs None =
             Ret (match bs with
                  | [] => Next None
                  | b :: bs' => if is_sorted_from b bs' then Next (Some (last_b b bs')) else Break false
                  end).
Proof.
  intros HN HS [|b bs]; [reflexivity|]. cbn [loopM]. rewrite HN. cbn [bind]. apply loopM_sorted. exact HS.
Qed.

Lemma tie_ubl_is_sorted : forall u : ublist, gen_ubl_is_sorted u = Ret (is_sorted (items u)).
Proof.
  intros u. cbv beta delta [gen_ubl_is_sorted] iota zeta. rewrite tie_ubl_bounds_only. cbn [bind].
  unfold to_list, iter_list, is_sorted.
  match goal with |- context [loopM ?F _ _] => rewrite (loopM_sorted_all F) end.
  - cbn [bind]. destruct (bounds_only (items u)) as [|b bs]; [reflexivity|]. destruct (is_sorted_from b bs); reflexivity.
  - intros b. reflexivity.
  - intros p b. cbn beta iota. rewrite opt_le_some. cbn [bind]. destruct (bound_le p b); reflexivity.
Qed.
