(** When the checked operations, the slicings and the indexings of [RsPrelude]/[RsStr] return, and what;
    what a loop computes whose body never panics. *)
From TucModel Require Import Base.Bytes Tie.RsPrelude Tie.RsStr.
Import ListNotations.
Local Open Scope Z_scope.

Lemma usize_chk_ok z : 0 <= z <= usize_max -> usize_chk z = Ret z.
Proof.
  intros H. unfold usize_chk, in_usize.
  destruct (Z.leb_spec 0 z); [|lia]. destruct (Z.leb_spec z usize_max); [reflexivity | lia].
Qed.

Lemma usize_add_ok a b : 0 <= a -> 0 <= b -> a + b <= usize_max -> usize_add a b = Ret (a + b).
Proof. intros Ha Hb H. apply usize_chk_ok. lia. Qed.

Lemma usize_sub_ok a b : 0 <= b <= a -> a <= usize_max -> usize_sub a b = Ret (a - b).
Proof. intros Hb H. apply usize_chk_ok. lia. Qed.

Lemma usize_add_of_nat (a b : nat) :
  Z.of_nat a + Z.of_nat b <= usize_max -> usize_add (Z.of_nat a) (Z.of_nat b) = Ret (Z.of_nat (a + b)).
Proof. intros H. rewrite Nat2Z.inj_add. apply usize_add_ok; lia. Qed.

Lemma usize_add_nat (a : nat) : Z.of_nat a + 1 <= usize_max -> usize_add (Z.of_nat a) 1 = Ret (Z.of_nat (S a)).
Proof. intros H. rewrite Nat2Z.inj_succ. apply usize_add_ok; lia. Qed.

Lemma usize_sub_of_nat (a b : nat) :
  (b <= a)%nat -> Z.of_nat a <= usize_max -> usize_sub (Z.of_nat a) (Z.of_nat b) = Ret (Z.of_nat (a - b)).
Proof. intros Hb H. rewrite Nat2Z.inj_sub by exact Hb. apply usize_sub_ok; lia. Qed.

Lemma i32_chk_ok z : i32_min <= z <= i32_max -> i32_chk z = Ret z.
Proof.
  intros H. unfold i32_chk, in_i32.
  destruct (Z.leb_spec i32_min z); [|lia]. destruct (Z.leb_spec z i32_max); [reflexivity | lia].
Qed.

Lemma i32_add_ok a b : i32_min <= a + b <= i32_max -> i32_add a b = Ret (a + b).
Proof. apply i32_chk_ok. Qed.

Lemma i32_max_le_usize_max : i32_max <= usize_max.
Proof. discriminate. Qed.

Lemma usize_to_i32_ok z : z <= i32_max -> usize_to_i32 z = Ret z.
Proof. intros H. unfold usize_to_i32. destruct (Z.leb_spec z i32_max); [reflexivity | lia]. Qed.

Lemma cast_i32_small z : 0 <= z <= i32_max -> cast_i32 z = z.
Proof. unfold cast_i32, i32_max. intros H. rewrite Z.mod_small by lia. lia. Qed.

Lemma cast_usize_small z : 0 <= z <= usize_max -> cast_usize z = z.
Proof. unfold cast_usize, usize_max. intros H. apply Z.mod_small. lia. Qed.

Lemma Z_of_nat_eqb (a b : nat) : (Z.of_nat a =? Z.of_nat b) = (a =? b)%nat.
Proof. destruct (Z.eqb_spec (Z.of_nat a) (Z.of_nat b)), (Nat.eqb_spec a b); (reflexivity || lia). Qed.

Lemma Z_of_nat_ltb (a b : nat) : (Z.of_nat a <? Z.of_nat b) = (a <? b)%nat.
Proof. destruct (Z.ltb_spec (Z.of_nat a) (Z.of_nat b)), (Nat.ltb_spec a b); (reflexivity || lia). Qed.

Lemma Z_of_nat_leb (a b : nat) : (Z.of_nat a <=? Z.of_nat b) = (a <=? b)%nat.
Proof. destruct (Z.leb_spec (Z.of_nat a) (Z.of_nat b)), (Nat.leb_spec a b); (reflexivity || lia). Qed.

Lemma str_from_ok (s : bytes) (a : nat) : (a <= length s)%nat -> str_from s (Z.of_nat a) = Ret (skipn a s).
Proof.
  intros H. unfold str_from. rewrite Nat2Z.id.
  destruct (Z.leb_spec 0 (Z.of_nat a)); [|lia].
  destruct (Z.leb_spec (Z.of_nat a) (Z.of_nat (length s))); [reflexivity | lia].
Qed.

Lemma str_to_ok (s : bytes) (b : nat) : (b <= length s)%nat -> str_to s (Z.of_nat b) = Ret (firstn b s).
Proof.
  intros H. unfold str_to. rewrite Nat2Z.id.
  destruct (Z.leb_spec 0 (Z.of_nat b)); [|lia].
  destruct (Z.leb_spec (Z.of_nat b) (Z.of_nat (length s))); [reflexivity | lia].
Qed.

Lemma str_between_nat (s : bytes) (a b : nat) :
  str_between s (Z.of_nat a) (Z.of_nat b)
  = if (a <=? b)%nat && (b <=? length s)%nat then Ret (slice s a b) else Panic.
Proof.
  unfold str_between, slice. rewrite !Z_of_nat_leb.
  destruct (Z.leb_spec 0 (Z.of_nat a)); [|lia]. cbn [andb].
  destruct (Nat.leb_spec a b); [|reflexivity]. rewrite <- Nat2Z.inj_sub, !Nat2Z.id by assumption. reflexivity.
Qed.

Lemma str_between_ok (s : bytes) (a b : nat) :
  (a <= b <= length s)%nat -> str_between s (Z.of_nat a) (Z.of_nat b) = Ret (slice s a b).
Proof.
  intros [Hab Hb]. rewrite str_between_nat.
  rewrite (proj2 (Nat.leb_le a b) Hab), (proj2 (Nat.leb_le b (length s)) Hb). reflexivity.
Qed.

Lemma vec_from_ok {A} (v : list A) (i : nat) : (i <= length v)%nat -> vec_from v (Z.of_nat i) = Ret (skipn i v).
Proof.
  intros H. unfold vec_from. rewrite Nat2Z.id.
  destruct (Z.leb_spec 0 (Z.of_nat i)); [|lia].
  destruct (Z.leb_spec (Z.of_nat i) (Z.of_nat (length v))); [reflexivity | lia].
Qed.

Lemma vec_index_nat {A} (l : list A) (i : nat) :
  vec_index l (Z.of_nat i) = match nth_error l i with Some x => Ret x | None => Panic end.
Proof. unfold vec_index. rewrite Nat2Z.id. destruct (Z.leb_spec 0 (Z.of_nat i)); [reflexivity | lia]. Qed.

Lemma foldM_ret {S A} (f : S -> A -> rs S) (g : S -> A -> S) (l : list A) :
  (forall s x, In x l -> f s x = Ret (g s x)) -> forall s, foldM f l s = Ret (fold_left g l s).
Proof.
  induction l as [|x l IH]; intros H s; cbn [foldM fold_left]; [reflexivity|].
  rewrite (H s x (or_introl eq_refl)). cbn [bind]. apply IH. intros s' y Hy. apply H. right. exact Hy.
Qed.

Lemma anyM_spec {A} (F : A -> rs bool) (G : A -> bool) :
  (forall x, F x = Ret (G x)) -> forall l, anyM F l = Ret (existsb G l).
Proof.
  intros H l. induction l as [|x l IH]; [reflexivity|]. cbn [anyM existsb]. rewrite H. cbn [bind].
  destruct (G x); [reflexivity | exact IH].
Qed.

Lemma loopM_next {S A R} (f : S -> A -> rs (ctrl S R)) (g : S -> A -> S) (l : list A) :
  (forall s x, In x l -> f s x = Ret (Next (g s x))) -> forall s, loopM f l s = Ret (Next (fold_left g l s)).
Proof.
  induction l as [|x l IH]; intros H s; cbn [loopM fold_left]; [reflexivity|].
  rewrite (H s x (or_introl eq_refl)). cbn [bind]. apply IH. intros s' y Hy. apply H. right. exact Hy.
Qed.

Lemma flat_mapM_ret {A C B} `{Iterable C B} (f : A -> rs C) (g : A -> C) (l : list A) :
  (forall x, In x l -> f x = Ret (g x)) -> flat_mapM f l = Ret (flat_map (fun x => to_list (g x)) l).
Proof.
  induction l as [|x l IH]; intros Hf; cbn [flat_mapM flat_map]; [reflexivity|].
  rewrite (Hf x (or_introl eq_refl)). cbn [bind]. rewrite IH by (intros y Hy; apply Hf; right; exact Hy). reflexivity.
Qed.

(** a result and what was written, passed on as they are: after [callee(..)?; Ok(())], and when the callee's
    result is returned directly *)
Lemma pass_on (x : rs (option unit * bytes)) :
  bind x (fun '(r, w) => match r with Some _ => Ret (Some tt, [] ++ w) | None => Ret (None, [] ++ w) end) = x.
Proof. destruct x as [[[[]|] w]|]; reflexivity. Qed.

Lemma pass_on' (x : rs (option unit * bytes)) : bind x (fun '(r, w) => Ret (r, [] ++ w)) = x.
Proof. destruct x as [[r w]|]; reflexivity. Qed.

(** a loop over [l] that only adds to what has been written ([st] puts that into the loop's state), against
    a model [run] that appends what the items give ([item]) up to the first that gives none *)
Lemma loopM_written {S A} (st : bytes -> S) (F : S -> A -> rs (ctrl S S)) (item : A -> rres) (run : list A -> rres) :
  run [] = ROk [] ->
  (forall x l, run (x :: l) = match item x with
                              | ROk p => match run l with ROk r => ROk (p ++ r) | e => e end
                              | e => e
                              end) ->
  forall l,
  (forall out x, In x l -> F (st out) x = match item x with
                                          | ROk p => Ret (Next (st (out ++ p)))
                                          | RErr => Ret (Break (st out))
                                          | _ => Panic
                                          end) ->
  forall out, match run l with
              | ROk r => loopM F l (st out) = Ret (Next (st (out ++ r)))
              | RErr => exists out', loopM F l (st out) = Ret (Break (st out'))
              | _ => loopM F l (st out) = Panic
              end.
Proof.
  intros Hnil Hcons. induction l as [|x l IH]; intros HF out; [rewrite Hnil; cbn [loopM]; rewrite app_nil_r; reflexivity|].
  cbn [loopM]. rewrite (HF out x (or_introl eq_refl)), Hcons.
  destruct (item x) as [p| | |]; cbn [bind]; [|exists out; reflexivity|reflexivity|reflexivity].
  specialize (IH (fun out' y Hy => HF out' y (or_intror Hy)) (out ++ p)).
  destruct (run l); [rewrite app_assoc|..]; exact IH.
Qed.
