(** [print_filler_or_fallbacks] (src/stream.rs), what the -M path does with the items left when a record
    ends, as translated: when [i] is within the items (`opt.bounds[bof_idx..]`) and [matches] answers on
    every bound from [i] on, it writes the model's [pff] and succeeds, or fails where [pff] is [None]. *)
From TucModel Require Import Base.Bytes Model.Bounds Model.CutBytes Model.Stream
  Tie.RsPrelude Tie.RsOpt Tie.RsFacts
  Tie.Bridge_ub_matches Tie.Bridge_print_bof Tie.Gen_print_rest.
Import ListNotations.
Local Open Scope Z_scope.

Definition comparable (n : Z) (x : bof) : Prop :=
  match x with Bound b => matches b n <> None | Filler _ => True end.

Lemma rest_loop (g : gsopt) (n : Z) (F : bytes -> bof -> rs (ctrl bytes (option unit))) :
  (forall st x, comparable n x ->
     F st x = match x with
              | Filler f => Ret (Next (st ++ f))
              | Bound b =>
                  let sep := if gs_join g && negb (blast b) then [sdelim (so_of g)] else [] in
                  let started := match bl b with SCont => true | SSome l => (l <=? n) end in
                  if started && side_eqb (br b) SCont then Ret (Next st)
                  else match fallback_for b (gs_fallback g) with
                       | Some fb => Ret (Next (st ++ fb ++ sep))
                       | None => Ret (Break None)
                       end
              end) ->
  forall l st, Forall (comparable n) l ->
    loopM F l st = match pff (so_of g) l n with Some t => Ret (Next (st ++ t)) | None => Ret (Break None) end.
Proof.
  intros HF. induction l as [|x l IH]; intros st Hl; cbn [loopM pff]; [rewrite app_nil_r; reflexivity|].
  inversion Hl as [|? ? Hx Hl']; subst. rewrite (HF st x Hx). destruct x as [b|f].
  - cbv zeta. change (s_fallback (so_of g)) with (gs_fallback g). change (s_join (so_of g)) with (gs_join g).
    destruct ((match bl b with SCont => true | SSome l0 => l0 <=? n end) && side_eqb (br b) SCont)%bool; cbn [bind].
    + apply IH, Hl'.
    + destruct (fallback_for b (gs_fallback g)) as [fb|]; cbn [bind]; [|reflexivity].
      rewrite (IH _ Hl'). destruct (pff (so_of g) l n); [rewrite <- !app_assoc; reflexivity | reflexivity].
  - cbn [bind]. rewrite (IH _ Hl'). destruct (pff (so_of g) l n); [rewrite <- app_assoc; reflexivity | reflexivity].
Qed.

Lemma matches_open (b : ubound) (n : Z) :
  side_eqb (br b) SCont = true -> matches b n <> None ->
  matches b n = Some (match bl b with SCont => true | SSome l => l <=? n end).
Proof.
  destruct b as [[l|] [r|] la fb]; cbn [br bl side_eqb]; try discriminate; unfold matches; cbn [bl br]; intros _ Hx.
  - destruct (opposite_sign l n); [contradiction | reflexivity].
  - reflexivity.
Qed.

Theorem tie_print_rest : forall (g : gsopt) (i : nat) (n : Z),
  (i <= length (items (gs_bounds g)))%nat ->
  Forall (comparable n) (skipn i (items (gs_bounds g))) ->
  match pff (so_of g) (skipn i (items (gs_bounds g))) n with
  | Some t => gen_print_rest (Z.of_nat i) g n = Ret (Some tt, t)
  | None => exists p, gen_print_rest (Z.of_nat i) g n = Ret (None, p)
  end.
Proof.
  intros g i n Hi Hc. cbv beta delta [gen_print_rest] iota zeta. rewrite vec_from_ok by exact Hi.
  cbn [bind]. unfold to_list, iter_list.
  match goal with |- context [loopM ?F _ _] => rewrite (rest_loop g n F) end; [| |exact Hc].
  - destruct (pff (so_of g) (skipn i (items (gs_bounds g))) n); cbn [bind]; [reflexivity | eexists; reflexivity].
  - intros st x Hx. destruct x as [b|f]; [|reflexivity]. cbn [comparable] in Hx. cbv zeta.
    unfold sdelim, so_of. cbn [s_repl s_delim].
    (* an open range that has started is complete *)
    destruct (side_eqb (br b) SCont) eqn:Er; rewrite ?tie_ub_matches; cbn [bind];
      rewrite ?(matches_open b n Er Hx), ?andb_true_r, ?andb_false_r;
      [destruct (match bl b with SCont => true | SSome l => l <=? n end); [reflexivity|] |].
    all: unfold fallback_for; destruct (bfb b) as [fb|]; [|destruct (gs_fallback g) as [fb|]; [|reflexivity]];
      cbn [opt_unwrap bind].
    all: destruct (gs_join g), (blast b); cbn [andb negb app]; rewrite ?app_nil_r, <- ?app_assoc; reflexivity.
Qed.
