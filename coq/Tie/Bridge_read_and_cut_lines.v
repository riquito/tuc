(** [read_and_cut_lines] (src/cut_lines.rs), as translated: the model's [can_be_streamed] chooses between
    the translated forward reader and the translated buffered one, whose result and output are passed on
    unchanged. *)
From TucModel Require Import Base.Bytes Model.Bounds Model.Opt Model.CutBytes Model.CutLines
  Tie.RsPrelude Tie.RsList Tie.RsFacts
  Tie.Bridge_ubl_is_forward_only Tie.Gen_lines_forward Tie.Gen_cut_lines Tie.Gen_read_and_cut_lines.
Import ListNotations.

Theorem tie_read_and_cut_lines : forall (stdin : bytes) (o : opt),
  gen_read_and_cut_lines stdin o
  = if can_be_streamed o then gen_lines_forward stdin o else gen_cut_lines stdin o.
Proof.
  intros stdin o. cbv beta delta [gen_read_and_cut_lines] iota zeta.
  unfold can_be_streamed, has_range_with_fallback.
  unfold to_list, iter_ublist.
  match goal with |- context [anyM ?F _] =>
    rewrite (anyM_spec F (fun x => match x with
                                   | Bound b => negb (side_eqb (bl b) (br b)) && negb (side_eqb (br b) SCont)
                                                && match fallback_for b (o_fallback o) with Some _ => true | None => false end
                                   | Filler _ => false
                                   end)) end.
  2:{ intros [b|f]; [|reflexivity]. unfold fallback_for.
      destruct (bfb b), (o_fallback o), (side_eqb (bl b) (br b)), (side_eqb (br b) SCont); reflexivity. }
  cbn [bind]. set (h := existsb _ (items (o_bounds o))).
  (* every flag decided, whichever order the source tests them in *)
  destruct (o_complement o), (o_compress o), h; cbn [negb andb bind];
    rewrite ?tie_ubl_is_forward_only; cbn [bind];
    try (destruct (is_forward_only (items (o_bounds o)))); cbn [negb andb]; first [apply pass_on | apply pass_on'].
Qed.
