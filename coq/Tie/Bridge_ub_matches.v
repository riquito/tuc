(** [UserBounds::matches], as translated, is the model's [matches]. *)
From TucModel Require Import Base.Bytes Model.Bounds Tie.RsPrelude Tie.TieBase Tie.Gen_ub_matches.
Local Open Scope Z_scope.

Lemma tie_ub_matches : forall (b : ubound) (idx : Z), gen_ub_matches b idx = Ret (matches b idx).
Proof.
  intros [[l|] [r|] la fb] idx; cbv beta delta [gen_ub_matches] iota zeta;
    unfold matches, opposite_sign; cbn [bl br].
  all: try destruct l as [|l|l]; try destruct r as [|r|r]; destruct idx as [|i|i]; sign_tests.
  all: case_bools; cbn [andb]; first [reflexivity | exfalso; lia].
Qed.
