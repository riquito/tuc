(** [UserBoundsList::unpack], as translated with [From<Vec<..>>] taken from the model, returns the model's
    [unpack_list] when every bound meets the hypotheses of [tie_ub_try_into_range], and panics where that is
    [None] (the `expect` of [From<Vec>] on a list without bounds). *)
From TucModel Require Import Base.Bytes Model.Bounds Tie.RsPrelude Tie.RsOpt Tie.RsList Tie.RsFacts
  Tie.Bridge_ub_unpack Tie.Gen_ubl_unpack.
Import ListNotations.
Local Open Scope Z_scope.

Definition item_left_nz (x : bof) : Prop := match x with Bound b => bl b <> SSome 0 | Filler _ => True end.

Lemma tie_ubl_unpack : forall (u : ublist) (n : nat),
  Z.of_nat n <= i32_max -> Forall item_left_nz (items u) ->
  gen_ubl_unpack u (Z.of_nat n) = opt_unwrap (unpack_list (items u) n).
Proof.
  intros u n Hn Hnz. cbv beta delta [gen_ubl_unpack] iota zeta.
  rewrite Forall_forall in Hnz.
  match goal with |- context [flat_mapM ?F _] =>
    rewrite (flat_mapM_ret F (fun x => match x with Bound b => map Bound (unpack_bound b n) | Filler f => [Filler f] end))
  end.
  - cbn [bind]. unfold unpack_list, model_from_vec, opt_unwrap, to_list, iter_list.
    match goal with |- context [from_vec ?l] => destruct (from_vec l) end; reflexivity.
  - intros [b|f] Hx; [|reflexivity]. cbn beta iota. rewrite (tie_ub_unpack b n Hn (Hnz _ Hx)). reflexivity.
Qed.
