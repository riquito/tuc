(** [UserBoundsList::is_sortable], as translated, is the model's. *)
From TucModel Require Import Base.Bytes Model.Bounds Tie.RsPrelude Tie.TieBase Tie.RsFacts
  Tie.Bridge_ubl_bounds_only Tie.Gen_ubl_is_sortable.
Import ListNotations.
Local Open Scope Z_scope.

Definition pos_of_b (b : ubound) : bool := side_pos (bl b) || side_pos (br b).
Definition neg_of_b (b : ubound) : bool := side_nonpos (bl b) || side_nonpos (br b).

Definition flags_step (st : bool * bool) (b : ubound) : bool * bool :=
  (fst st || pos_of_b b, snd st || neg_of_b b).

Lemma flags_fold : forall l p n,
  fold_left flags_step l (p, n) = (p || existsb pos_of_b l, n || existsb neg_of_b l).
Proof.
  induction l as [|b l IH]; intros p n; cbn [fold_left existsb].
  - rewrite !orb_false_r. reflexivity.
  - unfold flags_step at 2. cbn [fst snd]. rewrite IH, !orb_assoc. reflexivity.
Qed.

Lemma tie_ubl_is_sortable : forall u : ublist, gen_ubl_is_sortable u = Ret (is_sortable (items u)).
Proof.
  intros u. cbv beta delta [gen_ubl_is_sortable] iota zeta. rewrite tie_ubl_bounds_only. cbn [bind].
  unfold to_list, iter_list.
  (* a fold, or the same walk written as a [for] loop *)
  first [ match goal with |- context [foldM ?F _ _] => rewrite (foldM_ret F flags_step) end
        | match goal with |- context [loopM ?F _ _] => rewrite (loopM_next F flags_step) end ].
  - rewrite flags_fold. cbn [bind orb]. unfold is_sortable. first [reflexivity | rewrite andb_comm; reflexivity].
  - intros [p n] [[l|] [r|] la fb] _; unfold flags_step, pos_of_b, neg_of_b, side_pos, side_nonpos; cbn [bl br fst snd];
      case_bools; cbn [negb orb]; rewrite ?orb_true_r, ?orb_false_r; first [reflexivity | exfalso; lia].
Qed.
