(** [Side::from_str], as translated, is the model's [parse_side] (with [i32::from_str] as modelled
    by [parse_i32]). *)
From TucModel Require Import Base.Bytes Model.BoundsParse Tie.RsPrelude Tie.Gen_side_from_str.
Import ListNotations.

Lemma tie_side_from_str : forall s : bytes, gen_side_from_str s = Ret (parse_side s).
Proof.
  intros s. cbv beta delta [gen_side_from_str] iota zeta. unfold parse_side.
  destruct s as [|x s]; [reflexivity|]. destruct (parse_i32 (x :: s)); reflexivity.
Qed.
