(** [TryFrom<&UserBoundsList> for ForwardBounds] (src/stream.rs), as translated with
    [From<Vec<BoundOrFiller>>] taken from the model ([from_vec], Tie/RsList.v): on a list with a bound
    (without one the `expect` of [From<Vec>] would fire) it accepts when the model's [forward_bounds_ok]
    does, and then holds the rebuilt list with the index of its last bound. *)
From TucModel Require Import Base.Bytes Model.Bounds Model.Stream Proofs.BoundsFacts
  Tie.RsPrelude Tie.RsOpt Tie.RsList
  Tie.Bridge_ubl_is_forward_only Tie.Gen_fb_try_from.
Import ListNotations.
Local Open Scope Z_scope.

Definition norm_left (s : side) : side := match s with SCont => SSome 1 | s => s end.

Fixpoint strict_items (prev : side) (l : list bof) : bool :=
  match l with
  | [] => true
  | Filler _ :: r => strict_items prev r
  | Bound b :: r => if side_eqb (norm_left (bl b)) prev then false else strict_items (br b) r
  end.

Lemma strict_items_bounds_only : forall l prev, strict_items prev l = strict_from prev (bounds_only l).
Proof.
  induction l as [|[b|f] l IH]; intros prev; cbn [strict_items]; [reflexivity | | apply IH].
  change (bounds_only (Bound b :: l)) with (b :: bounds_only l). cbn [strict_from]. unfold norm_left. rewrite IH. destruct (bl b); reflexivity.
Qed.

(** the index of the last bound: the first one met walking the enumeration backwards *)
Fixpoint first_bound_idx (l : list (Z * bof)) : option Z :=
  match l with
  | [] => None
  | (i, Bound _) :: _ => Some i
  | (_, Filler _) :: r => first_bound_idx r
  end.
Definition last_bound_idx (l : list bof) : option Z := first_bound_idx (rev (enumerate_z l)).

Definition fb_image (u : ublist) : option gfb :=
  if forward_bounds_ok (items u) then
    match from_vec (items u) with
    | Some v => match last_bound_idx (items v) with Some i => Some (mkFB v i) | None => None end
    | None => None
    end
  else None.

Lemma loop_strict (F : side -> bof -> rs (ctrl side side)) :
  (forall prev x, F prev x = Ret (match x with
                                  | Bound b => if side_eqb (norm_left (bl b)) prev then Break prev else Next (br b)
                                  | Filler _ => Next prev
                                  end)) ->
  forall l prev, exists p, loopM F l prev = Ret (if strict_items prev l then Next p else Break p).
Proof.
  intros HF. induction l as [|x l IH]; intros prev; cbn [loopM strict_items].
  - exists prev. reflexivity.
  - rewrite HF. destruct x as [b|f]; cbn [bind].
    + destruct (side_eqb (norm_left (bl b)) prev); [exists prev; reflexivity | apply IH].
    + apply IH.
Qed.

Lemma loop_last (F : side * option Z -> Z * bof -> rs (ctrl (side * option Z) unit)) :
  (forall st i x, F st (i, x) = Ret (match x with
                                     | Bound _ => Stop (fst st, Some i)
                                     | Filler _ => Next st
                                     end)) ->
  forall l prev, loopM F l (prev, None)
                 = Ret (match first_bound_idx l with Some i => Stop (prev, Some i) | None => Next (prev, None) end).
Proof.
  intros HF. induction l as [|[i x] l IH]; intros prev; cbn [loopM first_bound_idx]; [reflexivity|].
  rewrite HF. destruct x as [b|f]; cbn [bind fst]; [reflexivity | apply IH].
Qed.

Theorem tie_fb_try_from : forall u : ublist,
  bounds_only (items u) <> [] -> gen_fb_try_from u = Ret (fb_image u).
Proof.
  intros u Hb. cbv beta delta [gen_fb_try_from] iota zeta. unfold fb_image, forward_bounds_ok.
  destruct (items u) as [|x0 l0] eqn:El; [reflexivity|]. rewrite <- El in *.
  rewrite tie_ubl_is_forward_only. cbn [bind].
  destruct (is_forward_only (items u)); cbn [andb]; [|reflexivity].
  unfold to_list, iter_ublist.
  match goal with |- context [loopM ?F (items u) (SSome 0)] =>
    destruct (loop_strict F) with (l := items u) (prev := SSome 0) as [p Hp] end.
  { intros prev x. destruct x as [b|f]; [|reflexivity]. unfold norm_left.
    destruct (bl b) as [n|]; cbv beta iota zeta;
      match goal with |- context [side_eqb ?a prev] => destruct (side_eqb a prev) end; reflexivity. }
  rewrite Hp. rewrite <- strict_items_bounds_only.
  destruct (strict_items (SSome 0) (items u)); cbn [bind]; [|reflexivity].
  unfold model_from_vec. destruct (from_vec_some _ Hb) as [v Ev]. rewrite Ev.
  cbn [bind]. unfold iter_list, last_bound_idx.
  match goal with |- context [loopM ?F (rev (enumerate_z (items v))) (p, None)] =>
    rewrite (loop_last F) end.
  2:{ intros st i x. destruct st as [a b0]. destruct x as [b|f]; reflexivity. }
  cbn [bind]. destruct (first_bound_idx (rev (enumerate_z (items v)))) as [i|]; reflexivity.
Qed.

Lemma first_bound_idx_spec : forall (l : list (Z * bof)) i, first_bound_idx l = Some i -> exists b, In (i, Bound b) l.
Proof.
  induction l as [|[j x] l IH]; intros i H; cbn [first_bound_idx] in H; [discriminate|].
  destruct x as [b|f].
  - injection H as <-. exists b. left. reflexivity.
  - destruct (IH i H) as [b Hb]. exists b. right. exact Hb.
Qed.

Lemma first_bound_idx_none : forall (l : list (Z * bof)) b, first_bound_idx l = None -> ~ In (Bound b) (map snd l).
Proof.
  induction l as [|[j x] l IH]; intros b H Hin; [exact Hin|]. cbn [first_bound_idx map snd In] in *.
  destruct x as [b'|f]; [discriminate|]. destruct Hin as [E|Hin]; [discriminate | exact (IH b H Hin)].
Qed.

Lemma snd_combine {A B} : forall (a : list A) (l : list B), length a = length l -> map snd (combine a l) = l.
Proof.
  induction a as [|x a IH]; intros [|y l] H; cbn in *; try discriminate; [reflexivity|].
  f_equal. apply IH. congruence.
Qed.

Lemma last_bound_idx_some : forall l : list bof, bounds_only l <> [] -> exists i, last_bound_idx l = Some i.
Proof.
  intros l Hb. unfold last_bound_idx. destruct (first_bound_idx (rev (enumerate_z l))) as [i|] eqn:E; [exists i; reflexivity|].
  exfalso. destruct (bounds_only l) as [|b bs] eqn:Eb; [contradiction|]. apply (first_bound_idx_none _ b E).
  rewrite map_rev, <- in_rev. unfold enumerate_z. rewrite snd_combine by (rewrite map_length, seq_length; reflexivity).
  apply bounds_only_in. rewrite Eb. left. reflexivity.
Qed.

Lemma mark_last_has_bounds : forall l : list bof, bounds_only l <> [] -> bounds_only (mark_last l) <> [].
Proof. intros l H E. apply H, length_zero_iff_nil. rewrite <- bounds_only_mark_last_len, E. reflexivity. Qed.

Theorem tie_fb_try_from_accepts : forall u : ublist, bounds_only (items u) <> [] ->
  (exists fb, gen_fb_try_from u = Ret (Some fb)) <-> forward_bounds_ok (items u) = true.
Proof.
  intros u Hb. rewrite (tie_fb_try_from u Hb). unfold fb_image. split.
  - intros [fb H]. destruct (forward_bounds_ok (items u)); [reflexivity | discriminate].
  - intros ->. destruct (from_vec_some _ Hb) as [v Ev]. rewrite Ev. apply from_vec_items in Ev as [Ei _].
    destruct (last_bound_idx_some (items v)) as [i Hi]; [rewrite Ei; apply mark_last_has_bounds, Hb|].
    rewrite Hi. eexists. reflexivity.
Qed.
