(** [From<Range<usize>> for UserBounds], as translated, returns the model's [of_range] when both ends
    pass `try_into().expect(..)` (at most 2^31 - 1) and `start + 1` does not overflow ([s < i32_max]). *)
From TucModel Require Import Base.Bytes Model.Bounds Tie.RsPrelude Tie.RsFacts
  Tie.Bridge_ub_new Tie.Gen_ub_from_range.
Local Open Scope Z_scope.

Lemma tie_ub_from_range : forall s e : nat,
  Z.of_nat s < i32_max -> Z.of_nat e <= i32_max ->
  gen_ub_from_range (Z.of_nat s, Z.of_nat e) = Ret (of_range s e).
Proof.
  intros s e Hs He. cbv beta delta [gen_ub_from_range] iota zeta. cbn [fst snd].
  rewrite !usize_to_i32_ok by lia. cbn [bind]. rewrite i32_add_ok by (unfold i32_min; lia). cbn [bind].
  rewrite tie_ub_new. cbn [bind]. reflexivity.
Qed.
