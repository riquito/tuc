(** [UserBounds::from_str] (src/bounds/userbounds.rs), as translated, returns the model's [parse_bound] on a
    text of fewer than 2^64 - 1 bytes: `idx_colon + 1`, `s.len() - 1` and the two slicings at the colon
    do not panic. *)
From TucModel Require Import Base.Bytes Model.Bounds Model.BoundsParse Tie.RsPrelude Tie.TieBase Tie.RsStr Tie.RsFacts
  Tie.Gen_side_from_str Tie.Bridge_side_from_str Tie.Gen_ub_new Tie.Gen_ub_from_str.
Import ListNotations.
Local Open Scope Z_scope.

Lemma find_from_split c s : forall pos,
  match str_find_from c s pos with
  | None => split_once c s = (s, None)
  | Some j => exists i : nat, j = pos + Z.of_nat i /\ (i < length s)%nat
              /\ split_once c s = (firstn i s, Some (skipn (S i) s))
  end.
Proof.
  induction s as [|x s IH]; intros pos; cbn [str_find_from split_once]; [reflexivity|].
  destruct (N.eqb x c).
  - exists 0%nat. cbn. repeat split; lia.
  - specialize (IH (pos + 1)). destruct (str_find_from c s (pos + 1)) as [j|].
    + destruct IH as (i & Hj & Hi & E). exists (S i). rewrite E. cbn [firstn skipn length]. repeat split; lia.
    + rewrite IH. reflexivity.
Qed.

Lemma find_split c s :
  match str_find c s with
  | None => split_once c s = (s, None)
  | Some j => exists i : nat, j = Z.of_nat i /\ (i < length s)%nat
              /\ split_once c s = (firstn i s, Some (skipn (S i) s))
  end.
Proof. unfold str_find. pose proof (find_from_split c s 0) as H. destruct (str_find_from c s 0); [|exact H]. destruct H as (i & -> & H). exists i. split; [lia | exact H]. Qed.

Lemma split_once_none c s a : split_once c s = (a, None) -> a = s.
Proof.
  revert a. induction s as [|x s IH]; intros a E; cbn [split_once] in E; [injection E as <-; reflexivity|].
  destruct (N.eqb x c); [discriminate|]. destruct (split_once c s) as [a' b'] eqn:E'. injection E as <- ->.
  rewrite (IH a' eq_refl). reflexivity.
Qed.

Lemma split_once_len c s a b : split_once c s = (a, b) -> (length a <= length s)%nat.
Proof.
  revert a b. induction s as [|x s IH]; intros a b E; cbn [split_once] in E.
  - injection E as <- <-. cbn. lia.
  - destruct (N.eqb x c); [injection E as <- <-; cbn; lia|].
    destruct (split_once c s) as [a' b'] eqn:E'. injection E as <- <-. cbn [length]. specialize (IH a' b' eq_refl). lia.
Qed.

(** [bind_steps] goes through each [x?] or checked operation whose value a hypothesis or [tie_side_from_str]
    gives, in whatever order the code asks for them; the rest [K] is met once, as an argument. *)
Lemma bind_eq {A B} (x : rs A) (a : A) (K : A -> rs B) (r : rs B) : x = Ret a -> K a = r -> bind x K = r.
Proof. intros -> <-. reflexivity. Qed.

Ltac bind_steps :=
  repeat match goal with
         | H : ?x = Ret _ |- bind ?x _ = _ => apply (bind_eq _ _ _ _ H)
         | |- bind (gen_side_from_str _) _ = _ => apply (bind_eq _ _ _ _ (tie_side_from_str _))
         end.

(** An arm of a `match` that other arms fall through to is translated as [let fall_k := fun _ => .. in ..],
    and what follows `let (l, r) = match ..` is repeated in each arm.  The code is unfolded without [zeta];
    [to_arm] removes the [let]s at the head of the left-hand side - a local variable is substituted, an arm
    is posed in the context and unfolded when the left-hand side comes to call it - so that a proof step
    copies the arm at hand only. *)
Ltac to_arm :=
  repeat lazymatch goal with
         | |- (let x := ?a in @?b x) = ?r =>
             lazymatch type of a with
             | unit -> _ => let y := fresh x in pose (y := a); change (b y = r)
             | _ => change (b a = r)
             end; cbv beta
         | |- ?f tt = _ => cbv beta delta [f]; clear f
         end.

(** what follows once the two sides are known: zero and order tests, [new], the fallback.  With the sides
    split by sign these tests compute. *)
Ltac sides_tail :=
  repeat match goal with
         | l : side |- _ => destruct l as [[|?p|?p]|]
         end;
  cbv beta iota zeta delta [bind gen_ub_new side_is_zero same_sign bl br blast bfb];
  sign_tests; cbn [Bool.eqb];
  case_bools; cbn [andb]; first [reflexivity | exfalso; lia].

Lemma tie_ub_from_str : forall s0 : bytes,
  Z.of_nat (length s0) < usize_max ->
  gen_ub_from_str s0 = Ret (parse_bound s0).
Proof.
  intros s0 Hlen. unfold parse_bound. cbv beta delta [gen_ub_from_str str_split_once].
  change 61%N with ch_eq. change 58%N with ch_colon.
  destruct (split_once ch_eq s0) as [s [fb|]] eqn:Es; [|apply split_once_none in Es; subst s0; rename Hlen into Hs].
  1: assert (Hs : Z.of_nat (length s) < usize_max) by (pose proof (split_once_len _ _ _ _ Es); lia); clear Hlen Es.
  (* with a fallback or without, the same steps on the range part [s] *)
  all: to_arm; destruct s as [|c0 s']; [reflexivity|]; change (length (c0 :: s')) with (S (length s')) in *; to_arm.
  all: destruct (bytes_eqb (c0 :: s') [ch_colon]); [reflexivity|]; to_arm.
  all: pose proof (find_split ch_colon (c0 :: s')) as Hf; destruct (str_find ch_colon (c0 :: s')) as [j|]; to_arm.
  (* no colon: one side, taken twice *)
  2,4: rewrite Hf; bind_steps; destruct (parse_side (c0 :: s')) as [x|]; [sides_tail | reflexivity].
  (* a colon at offset [i]: the slices and the index computations are in range *)
  all: destruct Hf as (i & -> & Hi & ->); cbn [length] in Hi.
  all: pose proof (usize_sub_ok (Z.of_nat (S (length s'))) 1 ltac:(lia) ltac:(lia)) as Hsub;
       pose proof (str_to_ok (c0 :: s') i ltac:(cbn [length]; lia)) as Hto; pose proof (usize_add_nat i ltac:(lia)) as Hadd;
       pose proof (str_from_ok (c0 :: s') (S i) ltac:(cbn [length]; lia)) as Hfrom.
  all: destruct i as [|i']; sign_tests; to_arm; bind_steps.
  (* the colon comes first: an open left side *)
  1,3: cbn [firstn skipn]; destruct (parse_side s') as [r|]; [sides_tail | reflexivity].
  (* the colon comes later: as the last character (an open right side) or with text on both sides *)
  all: rewrite firstn_cons, skipn_cons in *.
  all: destruct (skipn (S i') s') as [|y b'] eqn:Eb; pose proof (f_equal (@length _) Eb) as El; rewrite skipn_length in El; cbn [length] in El.
  all: case_bools; try lia; to_arm; bind_steps.
  all: destruct (parse_side (c0 :: firstn i' s')) as [l|]; [|reflexivity]; bind_steps.
  1,3: sides_tail.
  all: destruct (parse_side (y :: b')) as [r|]; [sides_tail | reflexivity].
Qed.
