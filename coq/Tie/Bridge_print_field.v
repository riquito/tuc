(** [print_field] (src/stream.rs), as translated. *)
From TucModel Require Import Base.Bytes Tie.RsPrelude Tie.Gen_print_field.
Import ListNotations.

Lemma tie_print_field : forall (buffer : bytes) (d : byte) (p : bool),
  gen_print_field buffer d p = Ret (Some tt, (if p then [d] else []) ++ buffer).
Proof. intros buffer d p. cbv beta delta [gen_print_field] iota zeta. destruct p; reflexivity. Qed.
