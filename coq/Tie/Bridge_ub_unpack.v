(** [UserBounds::unpack], as translated, returns the model's [unpack_bound] under the hypotheses of
    [tie_ub_try_into_range]. *)
From TucModel Require Import Base.Bytes Model.Bounds Proofs.BoundsFacts Tie.RsPrelude Tie.TieBase Tie.RsFacts
  Tie.Bridge_ub_new Tie.Bridge_ub_try_into_range Tie.Gen_ub_unpack.
Import ListNotations.
Local Open Scope Z_scope.

Lemma mapM_singles (F : Z -> rs ubound) :
  (forall i, 0 <= i < i32_max -> F i = Ret (single (i + 1))) ->
  forall (c s : nat), Z.of_nat s + Z.of_nat c <= i32_max ->
    mapM F (map (fun k => Z.of_nat s + Z.of_nat k) (seq 0 c)) = Ret (singles_from s c).
Proof.
  intros HF c. induction c as [|c IH]; intros s H; [reflexivity|].
  cbn [seq]. rewrite <- seq_shift. cbn [map mapM singles_from]. rewrite map_map.
  rewrite HF by lia. cbn [bind].
  rewrite (map_ext _ (fun k => Z.of_nat (S s) + Z.of_nat k)) by (intros; lia).
  rewrite IH by lia. cbn [bind]. do 3 f_equal. lia.
Qed.

Lemma tie_ub_unpack : forall (b : ubound) (n : nat),
  Z.of_nat n <= i32_max -> bl b <> SSome 0 ->
  gen_ub_unpack b (Z.of_nat n) = Ret (unpack_bound b n).
Proof.
  intros b n Hn Hz. cbv beta delta [gen_ub_unpack] iota zeta.
  rewrite (tie_ub_try_into_range b n Hn Hz). cbn [bind]. unfold unpack_bound.
  destruct (try_into_range b n) as [[s e]|] eqn:E; cbn [range_Z]; [|reflexivity].
  pose proof (try_into_range_bounds b n s e Hz E) as Hse.
  unfold to_list, iter_range, range_list. cbn [fst snd].
  rewrite <- Nat2Z.inj_sub, Nat2Z.id by lia.
  match goal with |- context [mapM ?F _] => rewrite (mapM_singles F) end; [reflexivity | | lia].
  intros i Hi. pose proof i32_max_le_usize_max.
  rewrite usize_add_ok by lia. cbn [bind]. rewrite cast_i32_small by lia. rewrite tie_ub_new. reflexivity.
Qed.
