(** [complement_std_range], as translated, is the model's. *)
From TucModel Require Import Base.Bytes Model.Bounds Tie.RsPrelude Tie.TieBase Tie.Gen_complement_std_range.
Import ListNotations.
Local Open Scope Z_scope.

Lemma tie_complement_std_range : forall n s e : nat,
  gen_complement_std_range (Z.of_nat n) (Z.of_nat s, Z.of_nat e) = Ret (pairs_Z (complement_std_range n s e)).
Proof.
  intros n s e. cbv beta delta [gen_complement_std_range] iota zeta. cbn [fst snd].
  unfold complement_std_range, pairs_Z.
  remember (Z.of_nat s) as zs eqn:Es. remember (Z.of_nat e) as ze eqn:Ee. remember (Z.of_nat n) as zn eqn:En.
  destruct zs as [|p|p]; [assert (s = 0%nat) by lia; subst s | destruct s as [|s]; [lia|] | lia];
    case_bools; cbn [negb app map fst snd]; subst; try (exfalso; lia); rs_finish.
Qed.
