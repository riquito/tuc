(** Reading a line at a time with the target library's [take_line] and [strip_suffix_byte] is reading
    the model's [records] one by one. *)
From TucModel Require Import Base.Bytes Base.ListX Model.Bounds Model.Opt Model.CutStr Model.CutLines
  Proofs.C03Full Tie.RsLines.
Import ListNotations.

Definition strip_eol (eol : byte) (raw : bytes) : bytes :=
  match strip_suffix_byte eol raw with Some v => v | None => raw end.

Lemma strip_one_suffix_length eol (l : bytes) : (length (strip_one_suffix eol l) <= length l)%nat.
Proof.
  unfold strip_one_suffix. destruct (rev l) as [|y r] eqn:E; [lia|]. destruct (N.eqb y eol); [|lia].
  rewrite rev_length, <- (rev_length l), E. cbn [length]. lia.
Qed.

Lemma take_line_length eol : forall l, (length (snd (take_line eol l)) <= length l)%nat /\
  (l <> [] -> length (snd (take_line eol l)) < length l)%nat.
Proof.
  induction l as [|x l IH]; cbn [take_line]; [split; [cbn; lia | intros H; contradiction]|].
  destruct (N.eqb x eol); cbn [snd length]; [split; intros; lia|].
  destruct (take_line eol l) as [a b]. cbn [snd length] in *. destruct IH as [IH1 _]. split; intros; lia.
Qed.

Lemma strip_eol_snoc eol (a : bytes) : strip_eol eol (a ++ [eol]) = a.
Proof. unfold strip_eol, strip_suffix_byte. rewrite rev_app_distr. cbn [rev app]. rewrite N.eqb_refl, rev_involutive. reflexivity. Qed.

Lemma strip_eol_no eol (a : bytes) : (forall x, In x a -> x <> eol) -> strip_eol eol a = a.
Proof.
  intros H. unfold strip_eol, strip_suffix_byte. destruct (rev a) as [|y r] eqn:E; [reflexivity|].
  destruct (N.eqb_spec y eol) as [Ey|Ey]; [|reflexivity]. exfalso. apply (H y); [|exact Ey].
  apply in_rev. rewrite E. left. reflexivity.
Qed.

(** a raw line is a stretch without terminator, followed by the terminator unless the input ends there *)
Lemma take_line_split eol : forall l, l <> [] ->
  let '(raw, rest) := take_line eol l in
  exists r, bfree eol r /\ ((raw = r ++ [eol] /\ l = r ++ eol :: rest) \/ (raw = r /\ rest = [] /\ l = r)).
Proof.
  induction l as [|x l IH]; intros Hne; [contradiction|]. cbn [take_line].
  destruct (N.eqb x eol) eqn:Ex.
  - apply N.eqb_eq in Ex. subst x. exists []. split; [constructor | left; split; reflexivity].
  - destruct l as [|y l'].
    + exists [x]. split; [repeat constructor; exact Ex | right; repeat split].
    + specialize (IH ltac:(discriminate)). destruct (take_line eol (y :: l')) as [a b].
      destruct IH as (r & Hr & [[-> E]|(-> & -> & E)]); exists (x :: r); (split; [constructor; assumption|]); rewrite E;
        [left | right]; repeat split.
Qed.

(** the first raw line is the first record plus its terminator (if it has one), and the records that
    follow are those of what is left *)
Lemma records_take eol (l : bytes) : l <> [] ->
  let '(raw, rest) := take_line eol l in
  records eol l = strip_eol eol raw :: records eol rest
  /\ (raw = strip_eol eol raw ++ [eol] \/ (raw = strip_eol eol raw /\ rest = [])).
Proof.
  intros H. pose proof (take_line_split eol l H) as P. destruct (take_line eol l) as [raw rest].
  destruct P as (r & Hr & [[-> ->]|(-> & -> & ->)]).
  - rewrite strip_eol_snoc, (records_first eol r rest Hr). split; [reflexivity | left; reflexivity].
  - rewrite (records_last eol r Hr H), strip_eol_no; [split; [reflexivity | right; split; reflexivity]|].
    intros x Hx ->. unfold bfree in Hr. rewrite Forall_forall in Hr. specialize (Hr eol Hx). rewrite N.eqb_refl in Hr. discriminate.
Qed.

(** what [fwd_bounds] leaves pending is a suffix of what it was given, and when it says "a bound has
    started printing" that bound is the first pending item *)
Lemma fwd_bounds_suffix (o : opt) (idx : Z) (line : bytes) : forall bs an,
  (an = true -> exists b r, bs = Bound b :: r) ->
  let '(out, rest, an') := fwd_bounds o bs an idx line in
  (exists pre, bs = pre ++ rest) /\ (an' = true -> exists b r, rest = Bound b :: r).
Proof.
  induction bs as [|x bs IH]; intros an Han; cbn [fwd_bounds].
  - split; [exists []; reflexivity | intros E; destruct (Han E) as (b & r & H); discriminate].
  - destruct x as [b|f].
    + destruct (matches b idx) as [[|]|].
      * destruct (side_eqb (br b) (SSome idx)).
        -- specialize (IH false ltac:(discriminate)). destruct (fwd_bounds o bs false idx line) as [[o' rest] a'].
           destruct IH as [[pre Hp] Ha]. split; [exists (Bound b :: pre); rewrite Hp; reflexivity | exact Ha].
        -- split; [exists []; reflexivity | intros _; exists b, bs; reflexivity].
      * split; [exists []; reflexivity | intros E; exists b, bs; reflexivity].
      * split; [exists []; reflexivity | intros E; exists b, bs; reflexivity].
    + assert (Hf : an = true -> exists b r, bs = Bound b :: r) by (intros E; destruct (Han E) as (b & r & H); discriminate).
      (* a filler is pending only when no bound has started printing *)
      specialize (IH an Hf). destruct (fwd_bounds o bs an idx line) as [[o' rest] a'].
      destruct IH as [[pre Hp] Ha]. split; [exists (Filler f :: pre); rewrite Hp; reflexivity | exact Ha].
Qed.

Lemma suffix_skipn {A} (l : list A) (i : nat) (pre rest : list A) : skipn i l = pre ++ rest ->
  skipn (length l - length rest) l = rest /\ (length rest <= length l)%nat.
Proof.
  intros E. rewrite <- (firstn_skipn i l), E, app_assoc, app_length.
  rewrite Nat.add_sub, skipn_app_length. split; [reflexivity | lia].
Qed.

Lemma records_length eol : forall l cur, (length (records_aux eol cur l) <= S (length l))%nat.
Proof.
  induction l as [|x l IH]; intros cur; cbn [records_aux length]; [destruct cur; cbn; lia|].
  destruct (N.eqb x eol); cbn [length]; [specialize (IH []) | specialize (IH (x :: cur))]; lia.
Qed.
