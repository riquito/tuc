(** [UserBoundsList::complement], as translated with [From<Vec<..>>] taken from the model, returns the
    model's [complement_list] when every bound meets the hypotheses of [tie_ub_try_into_range]. *)
From TucModel Require Import Base.Bytes Model.Bounds Tie.RsPrelude Tie.RsList Tie.RsFacts
  Tie.Bridge_ub_complement Tie.Bridge_ubl_unpack Tie.Gen_ubl_complement.
Import ListNotations.
Local Open Scope Z_scope.

Lemma any_is_bound (l : list bof) :
  existsb (fun x => match x with Bound _ => true | Filler _ => false end) l
  = match bounds_only l with [] => false | _ => true end.
Proof.
  unfold bounds_only. induction l as [|[b|f] l IH]; cbn [existsb flat_map app orb]; [reflexivity | reflexivity | exact IH].
Qed.

Lemma tie_ubl_complement : forall (u : ublist) (n : nat),
  Z.of_nat n <= i32_max -> Forall item_left_nz (items u) ->
  gen_ubl_complement u (Z.of_nat n) = Ret (complement_list (items u) n).
Proof.
  intros u n Hn Hnz. cbv beta delta [gen_ubl_complement] iota zeta.
  rewrite Forall_forall in Hnz.
  match goal with |- context [flat_mapM ?F _] =>
    rewrite (flat_mapM_ret F (fun x => match x with
                                       | Bound b => match complement_bound b n with Some bs => map Bound bs | None => [Bound b] end
                                       | Filler f => [Filler f] end))
  end.
  - cbn [bind]. unfold to_list, iter_list.
    match goal with |- context [anyM ?F _] =>
      rewrite (anyM_spec F (fun x => match x with Bound _ => true | Filler _ => false end)) by (intros [?|?]; reflexivity)
    end.
    cbn [bind]. rewrite any_is_bound. unfold complement_list, complement_items, model_from_vec.
    match goal with |- context [bounds_only ?l] => destruct (bounds_only l) as [|b0 bs0] eqn:Eb end; cbn [negb].
    + reflexivity.
    + unfold from_vec. rewrite Eb. reflexivity.
  - intros [b|f] Hx; [|reflexivity]. cbn beta iota. rewrite (tie_ub_complement b n Hn (Hnz _ Hx)). cbn [bind].
    destruct (complement_bound b n); reflexivity.
Qed.
