(** [fill_with_fields_locations] (src/cut_str.rs), as translated with the vector it fills as an argument
    and a result: whatever the vector held on entry, it returns holding the model's table of field
    locations (the gaps between the occurrences [find_iter] reports), provided
    `line.len() + delimiter.len()` fits a usize (`idx + delimiter_length`). *)
From TucModel Require Import Base.Bytes Model.Scan Tie.RsPrelude Tie.RsScan Tie.RsFacts Tie.CutStrFacts Tie.Gen_fill_fields.
Import ListNotations.
Local Open Scope Z_scope.

Definition mz (m : mtch) : Z * Z := (Z.of_nat (fst m), Z.of_nat (snd m)).

Lemma find_iter_aux_le d : forall l skip pos, Forall (fun p => (p <= pos + length l)%nat) (find_iter_aux d skip pos l).
Proof.
  induction l as [|x l IH]; intros skip pos; cbn [find_iter_aux length].
  - destruct skip; [destruct d|]; repeat constructor. lia.
  - assert (H : forall k, Forall (fun p => (p <= pos + S (length l))%nat) (find_iter_aux d k (S pos) l))
      by (intros k; eapply Forall_impl; [|apply (IH k (S pos))]; cbn; intros; lia).
    destruct skip; [|apply H]. destruct (starts_with d (x :: l)); [constructor; [lia | apply H] | apply H].
Qed.

Lemma find_iter_le d l : Forall (fun p => (p <= length l)%nat) (find_iter d l).
Proof. exact (find_iter_aux_le d l 0 0). Qed.

Definition occ (ld p : nat) : mtch := (p, p + ld)%nat.

Lemma fill_loop (F : list (Z * Z) * Z -> Z -> rs (ctrl (list (Z * Z) * Z) unit)) (ld n : nat) :
  (forall buf prev idx, 0 <= idx -> idx + Z.of_nat ld <= usize_max ->
     F (buf, prev) idx = Ret (Next (buf ++ [(prev, idx)], idx + Z.of_nat ld))) ->
  Z.of_nat n + Z.of_nat ld <= usize_max ->
  forall ps buf prev, Forall (fun p => (p <= n)%nat) ps ->
    loopM F (map Z.of_nat ps) (buf, Z.of_nat prev)
    = Ret (Next (buf ++ map mz (gaps_init prev (map (occ ld) ps)), Z.of_nat (gaps_last prev (map (occ ld) ps)))).
Proof.
  intros HF Hn ps. induction ps as [|p ps IH]; intros buf prev Hall; cbn [map loopM gaps_init gaps_last occ fst snd].
  - rewrite app_nil_r. reflexivity.
  - inversion Hall as [|? ? Hp Hps]; subst. rewrite HF by lia. cbn [bind].
    replace (Z.of_nat p + Z.of_nat ld) with (Z.of_nat (p + ld)) by lia. rewrite IH by exact Hps.
    rewrite <- app_assoc. reflexivity.
Qed.

Lemma tie_fill_fields : forall (buffer0 : list (Z * Z)) (line d : bytes),
  Z.of_nat (length line) + Z.of_nat (length d) <= usize_max ->
  gen_fill_fields buffer0 line d = Ret (tt, map mz (fields_of_matches (lit_matches d line) line)).
Proof.
  intros buffer0 line d Hlen. cbv beta delta [gen_fill_fields] iota zeta. unfold fields_of_matches.
  destruct line as [|x line']; [reflexivity|]. set (line := x :: line') in *. cbv iota beta.
  unfold to_list, iter_list, find_iter_z, lit_matches.
  match goal with |- context [loopM ?F _ _] =>
    rewrite (fill_loop F (length d) (length line)) with (prev := 0%nat) (buf := @nil (Z * Z))
  end.
  - cbn [bind]. rewrite (gaps_from_split _ (map (occ (length d)) _)), map_app. reflexivity.
  - intros buf prev idx H0 H1. cbv beta iota. rewrite usize_add_ok by lia. reflexivity.
  - exact Hlen.
  - apply find_iter_le.
Qed.
