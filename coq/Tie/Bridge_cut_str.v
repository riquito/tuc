(** src/cut_str.rs : cut_str (the general path), as translated stage by stage ([gen_cut_str_s<k>] is
    what follows the k-th top-level statement of the function), against the model's [cut_str]: for a
    literal delimiter, for -e RE with the regexes of the modelled family, and for -c. The model is read
    in the same stages ([cut_str_stages], Proofs/C01More.v); one lemma per stage of the code, and the
    three theorems supply what each kind of delimiter makes of the stages. *)
From TucModel Require Import Base.Bytes Model.Bounds Model.Scan Model.Regex Model.Opt
  Model.CutBytes Model.CutStr Model.Scratch Proofs.BoundsFacts Proofs.C06 Proofs.C01More
  Tie.RsPrelude Tie.TieBase Tie.RsOpt Tie.RsList Tie.RsRegex Tie.RsCut Tie.RsFacts
  Tie.Bridge_ub_try_into_range Tie.Bridge_maybe_replace Tie.CutStrFacts
  Proofs.C12 Proofs.C16 Tie.Bridge_trim_regex Tie.Bridge_fill_regex Tie.Bridge_compress_regex
  Tie.Bridge_ubl_unpack Tie.Bridge_ubl_complement
  Tie.Bridge_trim Tie.Bridge_fill_fields Tie.Bridge_compress_delimiter Tie.Gen_cut_str.
Import ListNotations.
Local Open Scope Z_scope.

(** the option tests of [cut_str] in one order, whichever way round the source writes them *)
Ltac norm_bools o :=
  repeat match goal with
         | |- context [(?a && o_compress o)%bool] => rewrite (andb_comm a (o_compress o))
         | |- context [(?a && o_join o)%bool] =>
             lazymatch a with negb _ => fail | _ => rewrite (andb_comm a (o_join o)) end
         | |- context [(btype_eqb (o_btype o) BLines || btype_eqb (o_btype o) BFields)%bool] =>
             rewrite (orb_comm (btype_eqb (o_btype o) BLines) (btype_eqb (o_btype o) BFields))
         | |- context [(?a || o_json o)%bool] => rewrite (orb_comm a (o_json o))
         | |- context [(?x && btype_eqb (o_btype o) BChars)%bool] => rewrite (andb_comm x (btype_eqb (o_btype o) BChars))
         end.

Definition of_rres_cut (r : option rres) (x : rs (option unit * bytes)) : Prop :=
  match r with
  | Some (ROk out) => x = Ret (Some tt, out)
  | Some RErr => exists partial, x = Ret (None, partial)
  | Some RPanic => x = Panic
  | _ => True
  end.

Lemma nz_left b : bound_nz b -> bl b <> SSome 0.
Proof. intros [H _] E. rewrite E in H. apply H. reflexivity. Qed.

Lemma not_chars o : o_btype o <> BChars -> btype_eqb (o_btype o) BChars = false.
Proof. intros H. destruct (o_btype o); try reflexivity. contradiction H. reflexivity. Qed.

Lemma item_nz_left : forall l : list bof, Forall item_nz l -> Forall item_left_nz l.
Proof. intros l H. eapply Forall_impl; [|exact H]. intros [b|f] Hx; [apply nz_left, Hx | exact I]. Qed.

(** what one item adds is what the loop makes of that item alone *)
Lemma out_loop_cons o line fields x bs :
  out_loop o line fields (x :: bs)
  = match out_loop o line fields [x] with
    | ROk p => match out_loop o line fields bs with ROk r => ROk (p ++ r) | e => e end
    | e => e
    end.
Proof.
  cbn [out_loop]. destruct x as [b|f].
  - match goal with |- match ?piece with _ => _ end = _ => destruct piece as [p| | |] end; try reflexivity.
    destruct (out_loop o line fields bs); try reflexivity. rewrite app_nil_r, <- app_assoc. reflexivity.
  - destruct (out_loop o line fields bs); rewrite ?app_nil_r; reflexivity.
Qed.

(** the selected text can always be printed, save under the -c splitter outside -c *)
Lemma maybe_replace_total o text : o_btype o = BChars \/ o_regex o <> Some RxChars -> exists t, maybe_replace o text = Some t.
Proof.
  intros [H|H]; unfold maybe_replace; [rewrite H; eexists; reflexivity|].
  destruct (o_btype o), (o_replace o), (o_regex o) as [[|r]|], (o_compress o); try (eexists; reflexivity); contradiction H; reflexivity.
Qed.

Lemma emit_json_text o t : emit_part o t = if o_json o then json_text t else Some t.
Proof. unfold emit_part, json_text. reflexivity. Qed.

Definition s19_out (o : opt) (eol : bytes) : bytes := (if o_json o then [ch_rbracket] else []) ++ eol.

Lemma s19_spec o stdout eol : gen_cut_str_s19 o stdout eol = Ret (Some tt, stdout ++ s19_out o eol).
Proof.
  cbv beta iota zeta delta [gen_cut_str_s19 gen_cut_str_s20 gen_cut_str_s21]. unfold s19_out.
  destruct (o_json o); cbn [app]; rewrite <- ?app_assoc; reflexivity.
Qed.

Lemma s18_spec (o : opt) (line : bytes) (fields : list mtch) stdout buf eol lh sb d (b1 : ublist) (bs : list bof) (lf : side) :
  (forall text, exists t, maybe_replace o text = Some t) -> Forall item_nz bs -> Z.of_nat (length fields) <= i32_max ->
  match out_loop o line fields bs with
  | ROk r => gen_cut_str_s18 line o stdout (map mz fields) buf eol lh sb d (Z.of_nat (length fields)) b1 (mkL bs lf)
             = Ret (Some tt, stdout ++ r ++ s19_out o eol)
  | RErr => exists p, gen_cut_str_s18 line o stdout (map mz fields) buf eol lh sb d (Z.of_nat (length fields)) b1 (mkL bs lf)
                      = Ret (None, p)
  | RPanic => gen_cut_str_s18 line o stdout (map mz fields) buf eol lh sb d (Z.of_nat (length fields)) b1 (mkL bs lf) = Panic
  | RHang => True
  end.
Proof.
  intros Hre Hnz Hn.
  remember (gen_cut_str_s18 _ _ _ _ _ _ _ _ _ _ _ _) as g eqn:Eg.
  cbv beta iota zeta delta [gen_cut_str_s18] in Eg. unfold to_list, iter_ublist in Eg. cbn [items] in Eg.
  (* the state of the loop is every local the closure captures; only the first component, what has been
     written, changes.  Its type stands at every [bind], [Ret] and [Next] of the closure: it gets a name, or
     each step below would carry the nine factors some dozens of times *)
  set (S9 := (bytes * list (Z * Z) * list byte * bytes * bytes * bool * bytes * ublist * ublist)%type) in Eg.
  set (st := fun out : bytes => (out, map mz fields, buf, line, lh, sb, d, b1, mkL bs lf) : S9).
  match type of Eg with context [bind (loopM ?F0 bs _) ?K0] => set (F := F0) in Eg; set (K := K0) in Eg end.
  assert (HF : forall out x, In x bs ->
            F (st out) x = match out_loop o line fields [x] with
                           | ROk p => Ret (Next (st (out ++ p)))
                           | RErr => Ret (Break (st out))
                           | _ => Panic
                           end).
  { clear Eg. intros out x Hx. apply (proj1 (Forall_forall _ _) Hnz) in Hx. subst F.
    destruct x as [b|f]; cbv beta iota delta [st]; [|cbn [out_loop]; rewrite app_nil_r; reflexivity].
    (* how the closure ends once the text to print is known, which the steps until then do not concern: it is
       written as it is or as a JSON string, then the separator; the code and the model are decided by the same
       four tests *)
    match goal with |- context [bind (Gen_maybe_replace.gen_maybe_replace _ o) ?K] => set (written := K) end.
    assert (Hw : forall t, written t = match emit_part o t with
                                       | Some p => Ret (Next (st (out ++ p ++ out_sep o b ++ [])))
                                       | None => Ret (Break (st out))
                                       end).
    { intros t. subst written. unfold out_sep, out_rep. rewrite emit_json_text.
      destruct (o_json o); [destruct (json_text t); [|reflexivity]|];
        destruct (o_join o), (blast b); cbn [andb negb]; apply (f_equal (fun w => Ret (Next (st w))));
        cbn [app]; rewrite ?app_nil_r, <- ?app_assoc; reflexivity. }
    rewrite out_loop_cons_bound. cbn [out_loop item_nz] in *.
    rewrite (tie_ub_try_into_range b (length fields) Hn (nz_left b Hx)). cbn [bind].
    destruct (try_into_range b (length fields)) as [[s e]|] eqn:E; cbn [range_Z opt_unwrap bind fst snd].
    - destruct (try_into_range_some b (length fields) s e Hx E) as (_ & _ & _ & Hse).
      unfold out_piece, range_start, range_end. rewrite E, vec_index_nat, nth_error_map.
      destruct (nth_error fields s) as [fs|]; cbn [option_map bind]; [|reflexivity].
      rewrite usize_sub_ok by (unfold usize_max, i32_max in *; lia). cbn [bind].
      replace (Z.of_nat e - 1) with (Z.of_nat (e - 1)) by lia. rewrite vec_index_nat, nth_error_map.
      destruct (nth_error fields (e - 1)) as [fe|]; cbn [option_map bind]; [|reflexivity].
      cbn [mz fst snd]. rewrite str_between_nat.
      destruct (Nat.leb (fst fs) (snd fe) && Nat.leb (snd fe) (length line))%bool; cbn [bind]; [|reflexivity].
      destruct (Hre (slice line (fst fs) (snd fe))) as [t Ht].
      rewrite (tie_maybe_replace o _ t Ht), Ht. cbn [bind]. rewrite Hw. destruct (emit_part o t); reflexivity.
    - rewrite (out_piece_unresolved o line fields b E). unfold fallback_for.
      destruct (bfb b) as [t|]; [|destruct (o_fallback o) as [t|]; [|reflexivity]]; cbn [bind opt_unwrap];
        refine (eq_trans (Hw t) _); destruct (emit_part o t); reflexivity. }
  pose proof (loopM_written st F (fun x => out_loop o line fields [x]) (out_loop o line fields) eq_refl
                (out_loop_cons o line fields) bs HF stdout) as L.
  cbv beta delta [st] in L.
  destruct (out_loop o line fields bs) as [r| | |].
  - rewrite Eg, L. unfold K. cbn [bind]. rewrite s19_spec, <- app_assoc. reflexivity.
  - destruct L as [out' L]. rewrite Eg, L. eexists. reflexivity.
  - rewrite Eg, L. reflexivity.
  - exact I.
Qed.

(** what the model's [cut_str] does once the table of fields is known and -s has had its say:
    -m, the unpacking of ranges for --json, the output loop, the brackets and the EOL *)
Definition unpack_wanted (o : opt) : bool :=
  o_json o || (btype_eqb (o_btype o) BChars && match o_replace o with Some _ => true | None => false end).

Definition tail2 (o : opt) (line : bytes) (fields : list mtch) (bs1 : list bof) : rres :=
  let b2 : option (list bof) :=
    if unpack_wanted o && needs_unpack bs1
    then match unpack_list bs1 (length fields) with Some l => Some (items l) | None => None end
    else Some bs1 in
  match b2 with
  | None => RPanic
  | Some bs2 =>
      match out_loop o line fields bs2 with
      | ROk body => ROk ((if o_json o then [ch_lbracket] else []) ++ body ++ (if o_json o then [ch_rbracket] else []) ++ [o_eol o])
      | e => e
      end
  end.

Definition tail_model (o : opt) (line : bytes) (fields : list mtch) : rres :=
  let b1 : option (list bof) :=
    if o_complement o then match complement_list (items (o_bounds o)) (length fields) with Some l => Some (items l) | None => None end
    else Some (items (o_bounds o)) in
  match b1 with
  | None => RErr
  | Some bs1 => tail2 o line fields bs1
  end.

(** the model's [cut_tail]: -s on a record without a delimiter, then the rest *)
Lemma cut_tail_model o line fields :
  cut_tail o line fields
  = Some (if o_only_delimited o && Nat.eqb (length fields) 1 then ROk [] else tail_model o line fields).
Proof.
  unfold cut_tail, tail_model, tail2, unpack_wanted.
  destruct (o_only_delimited o && Nat.eqb (length fields) 1)%bool; [reflexivity|].
  destruct (o_complement o); [destruct (complement_list _ _) as [u|]; [|reflexivity]|].
  all: destruct (_ && needs_unpack _)%bool; [destruct (unpack_list _ _) as [v|]; [|reflexivity]|].
  all: destruct (out_loop _ _ _ _); reflexivity.
Qed.

(** [gen_cut_str_s17]: the unpacking of ranges, then the loop *)
Lemma s17_spec (o : opt) (line : bytes) (fields : list mtch) stdout buf lh sb d (b1 u : ublist) :
  (forall text, exists t, maybe_replace o text = Some t) -> Forall item_nz (items u) -> Z.of_nat (length fields) <= i32_max ->
  let g := gen_cut_str_s17 line o stdout (map mz fields) buf [o_eol o] lh sb d (Z.of_nat (length fields)) b1 u in
  match (if unpack_wanted o && needs_unpack (items u)
         then match unpack_list (items u) (length fields) with Some l => Some (items l) | None => None end
         else Some (items u)) with
  | None => g = Panic
  | Some bs2 => match out_loop o line fields bs2 with
                | ROk r => g = Ret (Some tt, stdout ++ r ++ s19_out o [o_eol o])
                | RErr => exists p, g = Ret (None, p)
                | RPanic => g = Panic
                | RHang => True
                end
  end.
Proof.
  intros Hre Hnz Hn g. subst g. cbv beta iota zeta delta [gen_cut_str_s17]. norm_bools o. fold (unpack_wanted o).
  destruct (unpack_wanted o); cbn [andb].
  - unfold to_list, iter_ublist.
    match goal with |- context [anyM ?F _] =>
      rewrite (anyM_spec F (fun x => match x with
                                     | Bound b => negb (side_eqb (bl b) (br b)) || side_eqb (bl b) SCont
                                     | Filler _ => false end)) end.
    2:{ intros [[l r la fb]|f]; cbn [bl br]; first [reflexivity | f_equal; apply orb_comm]. }
    cbn [bind]. fold (needs_unpack (items u)). destruct (needs_unpack (items u)).
    + rewrite tie_ubl_unpack by (try exact Hn; apply item_nz_left, Hnz). unfold opt_unwrap.
      destruct (unpack_list (items u) (length fields)) as [v|] eqn:Ev; [|reflexivity]. cbn [bind].
      pose proof (unpack_list_nz _ _ _ Hnz Ev) as Hv. destruct v as [bs lf]. apply s18_spec; assumption.
    + destruct u as [bs lf]. apply s18_spec; assumption.
  - destruct u as [bs lf]. apply s18_spec; assumption.
Qed.

(** the same after --json's opening bracket: the model's [tail2] *)
Lemma s17_tail2 (o : opt) (line : bytes) (fields : list mtch) buf lh sb d (b1 u : ublist) :
  (forall text, exists t, maybe_replace o text = Some t) -> Forall item_nz (items u) -> Z.of_nat (length fields) <= i32_max ->
  of_rres_cut (Some (tail2 o line fields (items u)))
    (gen_cut_str_s17 line o (if o_json o then [ch_lbracket] else []) (map mz fields) buf [o_eol o] lh sb d (Z.of_nat (length fields)) b1 u).
Proof.
  intros Hre Hu Hn. pose proof (s17_spec o line fields (if o_json o then [ch_lbracket] else []) buf lh sb d b1 u Hre Hu Hn) as H.
  cbv zeta in H. unfold s19_out in H. unfold tail2. cbv zeta.
  match type of H with match ?x with _ => _ end => destruct x as [bs2|] end; [|exact H].
  destruct (out_loop o line fields bs2); exact H.
Qed.

Lemma s13_spec line o fields buf eol lh sb d n :
  gen_cut_str_s13 line o [] fields buf eol lh sb d n
  = gen_cut_str_s16 line o (if o_json o then [ch_lbracket] else []) fields buf eol lh sb d n (mkL [] SCont) (o_bounds o).
Proof. cbv beta iota zeta delta [gen_cut_str_s13 gen_cut_str_s14 gen_cut_str_s15]. destruct (o_json o); reflexivity. Qed.

(** -m: the complement of a list of bounds is never empty, so the branch of the code for that is dead *)
Lemma s16_spec (o : opt) (line : bytes) (fields : list mtch) buf lh sb d (b1 : ublist) :
  (forall text, exists t, maybe_replace o text = Some t) ->
  Forall item_nz (items (o_bounds o)) -> Z.of_nat (length fields) <= i32_max ->
  of_rres_cut (Some (tail_model o line fields))
    (gen_cut_str_s16 line o (if o_json o then [ch_lbracket] else []) (map mz fields) buf [o_eol o] lh sb d (Z.of_nat (length fields)) b1 (o_bounds o)).
Proof.
  intros Hre Hnz Hn. cbv beta iota zeta delta [gen_cut_str_s16]. unfold tail_model.
  destruct (o_complement o); [|apply s17_tail2; assumption].
  rewrite tie_ubl_complement by (try exact Hn; apply item_nz_left, Hnz). cbn [bind].
  destruct (complement_list (items (o_bounds o)) (length fields)) as [u|] eqn:Eu; [|eexists; reflexivity].
  destruct (complement_list_ok _ _ _ Hnz Eu) as [Hu Hne]. destruct (items u) as [|x0 xs] eqn:Ei; [now destruct Hne|].
  rewrite <- Ei in *. apply s17_tail2; assumption.
Qed.

Lemma s11_spec (o : opt) (line : bytes) (fields : list mtch) buf lh sb d :
  (forall text, exists t, maybe_replace o text = Some t) ->
  Forall item_nz (items (o_bounds o)) -> Z.of_nat (length fields) <= i32_max ->
  of_rres_cut (cut_tail o line fields) (gen_cut_str_s11 line o [] (map mz fields) buf [o_eol o] lh sb d).
Proof.
  intros Hre Hnz Hn. pose proof (s16_spec o line fields buf lh sb d (mkL [] SCont) Hre Hnz Hn) as Main.
  cbv beta iota zeta delta [gen_cut_str_s11 gen_cut_str_s12]. rewrite s13_spec, map_length.
  replace (Z.of_nat (length fields) =? 1) with (Nat.eqb (length fields) 1) by (symmetry; apply (Z_of_nat_eqb _ 1)).
  rewrite cut_tail_model. destruct (o_only_delimited o), (Nat.eqb (length fields) 1); cbn [andb]; first [reflexivity | exact Main].
Qed.

Lemma removelast_map {A B} (f : A -> B) : forall l, removelast (map f l) = map f (removelast l).
Proof. induction l as [|a [|b l] IH]; [reflexivity | reflexivity |]. cbn [map removelast] in *. rewrite IH. reflexivity. Qed.

Lemma tl_removelast {A} (l : list A) : tl (removelast l) = removelast (tl l).
Proof. destruct l as [|a [|b l]]; reflexivity. Qed.

Lemma s10_any (o : opt) (line : bytes) (fields0 : list mtch) buf lh sb d :
  (forall text, exists t, maybe_replace o text = Some t) ->
  Forall item_nz (items (o_bounds o)) -> Z.of_nat (length (cut_fields o fields0)) <= i32_max ->
  of_rres_cut (cut_tail o line (cut_fields o fields0)) (gen_cut_str_s10 line o [] (map mz fields0) buf [o_eol o] lh sb d).
Proof.
  intros Hre Hnz Hn. pose proof (s11_spec o line (cut_fields o fields0) buf lh sb d Hre Hnz Hn) as H11. revert H11.
  cbv beta iota zeta delta [gen_cut_str_s10]. norm_bools o. unfold cut_fields, drop_outer.
  rewrite map_length.
  replace (2 <? Z.of_nat (length fields0)) with (Nat.ltb 2 (length fields0)) by (symmetry; apply (Z_of_nat_ltb 2)).
  destruct (btype_eqb (o_btype o) BChars), (Nat.ltb 2 (length fields0)) eqn:E2; cbn [andb]; try (intros H11; exact H11).
  rewrite removelast_map. destruct (removelast fields0) as [|x xs] eqn:E.
  - apply Nat.ltb_lt in E2. destruct fields0 as [|a [|b l]]; cbn in E2; try lia. cbn [removelast] in E. destruct l; discriminate.
  - cbn [map vec_drain1 bind]. rewrite <- tl_removelast, E. intros H11. exact H11.
Qed.

(** [s10_any] outside -c, with the model's tail written out *)
Lemma s10_spec (o : opt) (line : bytes) (fields : list mtch) buf lh sb d :
  (forall text, exists t, maybe_replace o text = Some t) -> o_btype o <> BChars ->
  Forall item_nz (items (o_bounds o)) -> Z.of_nat (length fields) <= i32_max ->
  let g := gen_cut_str_s10 line o [] (map mz fields) buf [o_eol o] lh sb d in
  if (o_only_delimited o && Nat.eqb (length fields) 1)%bool then g = Ret (Some tt, [])
  else match tail_model o line fields with
       | ROk r => g = Ret (Some tt, r)
       | RErr => exists p, g = Ret (None, p)
       | RPanic => g = Panic
       | RHang => True
       end.
Proof.
  intros Hre Hb Hnz Hn g. subst g.
  pose proof (s10_any o line fields buf lh sb d Hre Hnz) as H. unfold cut_fields in H. rewrite (not_chars o Hb), cut_tail_model in H.
  specialize (H Hn). destruct (o_only_delimited o && Nat.eqb (length fields) 1)%bool; exact H.
Qed.

Definition compresses (o : opt) : bool :=
  o_compress o && (btype_eqb (o_btype o) BFields || btype_eqb (o_btype o) BLines).

(** --regex with -p or -j needs -r *)
Lemma s0_spec line0 o fields0 buf0 eol :
  gen_cut_str line0 o fields0 buf0 eol = if cut_guard o then Ret (None, []) else gen_cut_str_s1 line0 o [] fields0 buf0 eol.
Proof.
  cbv beta iota zeta delta [gen_cut_str]. unfold cut_guard, is_re.
  destruct (o_regex o), (o_replace o), (o_compress o), (o_join o); reflexivity.
Qed.

Lemma guard_bridge o line0 fields0 buf0 :
  (cut_guard o = false -> of_rres_cut (cut_str o line0) (gen_cut_str line0 o fields0 buf0 [o_eol o])) ->
  of_rres_cut (cut_str o line0) (gen_cut_str line0 o fields0 buf0 [o_eol o]).
Proof.
  intros H. destruct (cut_guard o) eqn:Hg; [|exact (H eq_refl)].
  rewrite cut_str_stages, s0_spec, Hg. eexists. reflexivity.
Qed.

(** -t, by the literal or the regex trimmer *)
Lemma s1_spec o line0 l1 stdout fields buf eol :
  cut_trim o line0 = Some l1 ->
  (o_regex o = None -> Z.of_nat (length line0) + Z.of_nat (length (o_delim o)) <= usize_max) ->
  (forall k x ms, o_trim o = Some k -> o_regex o = Some x -> rx_greedy x line0 = Some ms -> wf_ms 0%nat ms (length line0)) ->
  gen_cut_str_s1 line0 o stdout fields buf eol = gen_cut_str_s3 l1 o stdout fields buf eol.
Proof.
  intros E Hlit Hwf. cbv beta iota zeta delta [gen_cut_str_s1 gen_cut_str_s2]. unfold cut_trim in E.
  destruct (o_trim o) as [k|]; [|injection E as <-; reflexivity].
  destruct (o_regex o) as [x|]; cbn [opt_unwrap bind].
  - destruct (rx_greedy x line0) as [ms|] eqn:Em; [|discriminate]. injection E as <-.
    rewrite (tie_trim_regex line0 k (rb_greedy x) ms Em (Hwf k x ms eq_refl eq_refl Em)). reflexivity.
  - injection E as <-. rewrite tie_trim by (apply Hlit; reflexivity). reflexivity.
Qed.

(** the empty record; otherwise the locals of the stages 4 to 7 *)
Lemma s3_spec l1 o stdout fields buf eol :
  gen_cut_str_s3 l1 o stdout fields buf eol
  = match l1 with
    | [] => Ret (Some tt, stdout ++ (if o_only_delimited o then [] else eol))
    | _ => gen_cut_str_s8 l1 o stdout fields buf eol [] (is_re o) (o_delim o) (compresses o)
    end.
Proof.
  cbv beta iota zeta delta [gen_cut_str_s3 gen_cut_str_s4 gen_cut_str_s5 gen_cut_str_s6 gen_cut_str_s7].
  destruct l1 as [|c l].
  - destruct (o_only_delimited o); cbn [negb]; rewrite ?app_nil_r; reflexivity.
  - norm_bools o. rewrite andb_true_r. reflexivity.
Qed.

(** -p, by the literal or the regex compressor; which buffers hold the result does not matter later *)
Lemma s8_spec o l1 line d sbr stdout fields buf eol lh :
  cut_compress o l1 = Some (line, d, sbr) ->
  (o_regex o = None -> Z.of_nat (length l1) + Z.of_nat (length (o_delim o)) <= usize_max) ->
  exists buf' lh',
    gen_cut_str_s8 l1 o stdout fields buf eol lh (is_re o) (o_delim o) (compresses o)
    = gen_cut_str_s9 line o stdout fields buf' eol lh' sbr d.
Proof.
  intros E Hlit. cbv beta iota zeta delta [gen_cut_str_s8]. unfold cut_compress in E. fold (compresses o) in E. unfold is_re in *.
  destruct (compresses o); [|injection E as <- <- <-; eexists _, _; reflexivity].
  destruct (o_regex o) as [x|]; cbn [andb opt_unwrap bind].
  - destruct (rx_greedy x l1) as [ms|] eqn:Em; [|discriminate]. destruct (o_replace o) as [nd|]; [|discriminate].
    injection E as <- <- <-. cbn [opt_unwrap bind]. rewrite (tie_compress_regex l1 nd (rb_greedy x) ms Em).
    eexists _, _. reflexivity.
  - injection E as <- <- <-. rewrite tie_compress_delimiter by (apply Hlit; reflexivity). eexists _, _. reflexivity.
Qed.

Lemma cut_compress_re o l1 line d : cut_compress o l1 = Some (line, d, true) -> o_regex o <> None.
Proof.
  unfold cut_compress, is_re. intros E Hre. rewrite Hre in E. destruct (o_compress o && _)%bool; discriminate.
Qed.

(** the splitter: regex, greedy or plain *)
Lemma s9_spec o line d sbr ms stdout fields0 buf eol lh :
  cut_split o line d sbr = Some ms ->
  (sbr = true -> o_regex o <> None) ->
  (sbr = false -> Z.of_nat (length line) + Z.of_nat (length d) <= usize_max) ->
  gen_cut_str_s9 line o stdout fields0 buf eol lh sbr d
  = gen_cut_str_s10 line o stdout (map mz (fields_of_matches ms line)) buf eol lh sbr d.
Proof.
  intros E Hre Hlit. cbv beta iota zeta delta [gen_cut_str_s9]. unfold cut_split in E. destruct sbr.
  - destruct (o_regex o) as [x|]; [|exfalso; apply Hre; reflexivity]. cbn [opt_unwrap bind].
    destruct (o_greedy o);
      [rewrite (tie_fill_regex fields0 line (rb_greedy x) ms E) | rewrite (tie_fill_regex fields0 line (rb_normal x) ms E)]; reflexivity.
  - destruct (o_greedy o); injection E as <-; [|rewrite tie_fill_fields by (apply Hlit; reflexivity)]; reflexivity.
Qed.

(** the stages in a row, for a record that the model takes through [l1], [(line, d, sbr)] and [ms] *)
Lemma stages_bridge o line0 l1 line d sbr ms fields0 buf0 :
  cut_guard o = false ->
  Forall item_nz (items (o_bounds o)) -> (forall text, exists t, maybe_replace o text = Some t) ->
  cut_trim o line0 = Some l1 -> cut_compress o l1 = Some (line, d, sbr) -> cut_split o line d sbr = Some ms ->
  (o_regex o = None -> Z.of_nat (length line0) + Z.of_nat (length (o_delim o)) <= usize_max) ->
  (forall k x ms', o_trim o = Some k -> o_regex o = Some x -> rx_greedy x line0 = Some ms' -> wf_ms 0%nat ms' (length line0)) ->
  (o_regex o = None -> Z.of_nat (length l1) + Z.of_nat (length (o_delim o)) <= usize_max) ->
  (sbr = false -> Z.of_nat (length line) + Z.of_nat (length d) <= usize_max) ->
  Z.of_nat (length (cut_fields o (fields_of_matches ms line))) <= i32_max ->
  of_rres_cut (cut_str o line0) (gen_cut_str line0 o fields0 buf0 [o_eol o]).
Proof.
  intros Hg Hnz Hmr Et Es Em HT Hwf HC HS HF.
  rewrite cut_str_stages, s0_spec, Hg, Et, (s1_spec o line0 l1 _ _ _ _ Et HT Hwf), s3_spec.
  destruct l1 as [|c l]; [destruct (o_only_delimited o); reflexivity|].
  destruct (s8_spec o (c :: l) line d sbr [] fields0 buf0 [o_eol o] [] Es HC) as (buf' & lh' & E8).
  unfold cut_matches.
  rewrite Es, Em, E8, (s9_spec o line d sbr ms _ _ _ _ _ Em) by (first [exact HS | intros ->; exact (cut_compress_re _ _ _ _ Es)]).
  apply s10_any; assumption.
Qed.

(** the record after -t, after -p, and its table of fields *)
Definition line1 (o : opt) (line0 : bytes) : bytes :=
  match o_trim o with Some k => trim_lit k (o_delim o) line0 | None => line0 end.
Lemma trim_lit_length k p l : (length (trim_lit k p l) <= length l)%nat.
Proof. apply trim_lit_le. Qed.

Lemma line1_length o line0 : (length (line1 o line0) <= length line0)%nat.
Proof. unfold line1. destruct (o_trim o); [apply trim_lit_length | lia]. Qed.

Definition line2 (o : opt) (l1 : bytes) : bytes :=
  if compresses o then compress_delimiter (o_delim o) l1 else l1.
Definition fields_lit (o : opt) (l2 : bytes) : list mtch :=
  fields_of_matches (if o_greedy o then merge_adjacent (lit_matches (o_delim o) l2) else lit_matches (o_delim o) l2) l2.

(** a record of n bytes has at most n + 2 fields *)
Lemma find_iter_aux_count d : forall l skip pos, (length (find_iter_aux d skip pos l) <= S (length l))%nat.
Proof.
  induction l as [|x l IH]; intros skip pos; cbn [find_iter_aux length].
  - destruct skip; [destruct d|]; cbn [length]; lia.
  - destruct skip; [|specialize (IH skip (S pos)); lia].
    destruct (starts_with d (x :: l)); cbn [length]; [specialize (IH (length d - 1)%nat (S pos)) | specialize (IH 0%nat (S pos))]; lia.
Qed.

Lemma merge_adjacent_from_count : forall ms cur, (length (merge_adjacent_from cur ms) <= S (length ms))%nat.
Proof.
  induction ms as [|m ms IH]; intros cur; cbn [merge_adjacent_from length]; [lia|].
  destruct (Nat.eqb (fst m) (snd cur)); cbn [length]; [specialize (IH (fst cur, snd m)) | specialize (IH m)]; lia.
Qed.

Lemma gaps_from_count len : forall ms start, length (gaps_from start ms len) = S (length ms).
Proof. induction ms as [|m ms IH]; intros start; cbn [gaps_from length]; [reflexivity|]. rewrite IH. reflexivity. Qed.

Lemma fields_lit_count o l2 : (length (fields_lit o l2) <= length l2 + 2)%nat.
Proof.
  unfold fields_lit, fields_of_matches. destruct l2 as [|x l2']; [cbn; lia|]. rewrite gaps_from_count.
  assert (H : (length (lit_matches (o_delim o) (x :: l2')) <= S (length (x :: l2')))%nat).
  { unfold lit_matches, find_iter. rewrite map_length. apply find_iter_aux_count. }
  destruct (o_greedy o); [|lia].
  unfold merge_adjacent. destruct (lit_matches (o_delim o) (x :: l2')) as [|m ms]; [cbn; lia|].
  pose proof (merge_adjacent_from_count ms m). cbn [length] in *. lia.
Qed.

Theorem tie_cut_str_literal : forall (o : opt) (line0 : bytes) (fields0 : list (Z * Z)) (buf0 : list byte),
  o_regex o = None -> o_btype o <> BChars ->
  Forall item_nz (items (o_bounds o)) ->
  Z.of_nat (length line0) + Z.of_nat (length (o_delim o)) <= usize_max ->
  Z.of_nat (length (line2 o (line1 o line0))) + Z.of_nat (length (o_delim o)) <= usize_max ->
  Z.of_nat (length (line2 o (line1 o line0))) + 2 <= i32_max ->
  of_rres_cut (cut_str o line0) (gen_cut_str line0 o fields0 buf0 [o_eol o]).
Proof.
  intros o line0 fields0 buf0 Hre Hb Hnz H0 H2 Hf.
  set (l2 := line2 o (line1 o line0)) in *.
  apply (stages_bridge o line0 (line1 o line0) l2 (o_delim o) false
           (if o_greedy o then merge_adjacent (lit_matches (o_delim o) l2) else lit_matches (o_delim o) l2)).
  - exact (cut_guard_literal o Hre).
  - exact Hnz.
  - intros text. apply maybe_replace_total. right. rewrite Hre. discriminate.
  - exact (cut_trim_literal o line0 Hre).
  - exact (cut_compress_literal o _ Hre).
  - apply cut_split_literal.
  - intros _. exact H0.
  - intros k x ms _ Hx. rewrite Hre in Hx. discriminate.
  - intros _. pose proof (line1_length o line0). lia.
  - intros _. exact H2.
  - unfold cut_fields. rewrite (not_chars o Hb). pose proof (fields_lit_count o l2) as Hc. unfold fields_lit in Hc. lia.
Qed.

Definition rline1 (o : opt) (r : re) (line0 : bytes) : bytes :=
  match o_trim o with Some k => trim_matches k (re_find_iter (RPlus r) line0) line0 | None => line0 end.
Definition rline2 (o : opt) (r : re) (l1 : bytes) : bytes :=
  if compresses o then match o_replace o with Some nd => replace_matches l1 (re_find_iter (RPlus r) l1) nd | None => l1 end else l1.
Definition rfields (o : opt) (r : re) (l1 : bytes) : list mtch :=
  let l2 := rline2 o r l1 in
  if compresses o
  then match o_replace o with
       | Some nd => fields_of_matches (if o_greedy o then merge_adjacent (lit_matches nd l2) else lit_matches nd l2) l2
       | None => []
       end
  else fields_of_matches (if o_greedy o then re_find_iter (RPlus r) l2 else re_find_iter r l2) l2.

(** under -p every run of matches is rewritten to the new delimiter and the literal splitter used on
    it; otherwise the regex splitter *)
Lemma regex_stages o r l1 : o_regex o = Some (RxRe r) -> cut_guard o = false ->
  exists d ms,
    cut_compress o l1 = Some (rline2 o r l1, d, negb (compresses o))
    /\ cut_split o (rline2 o r l1) d (negb (compresses o)) = Some ms
    /\ fields_of_matches ms (rline2 o r l1) = rfields o r l1
    /\ (compresses o = true -> o_replace o = Some d).
Proof.
  intros Hre Hg. unfold cut_compress, cut_split, rfields, rline2, is_re. fold (compresses o). cbv zeta. rewrite Hre. cbn [rx_greedy rx_normal].
  destruct (compresses o) eqn:Ec; cbn [negb].
  - destruct (o_replace o) as [nd|] eqn:Er.
    + exists nd. eexists. repeat split. destruct (o_greedy o); reflexivity.
    + unfold cut_guard, is_re, compresses in *. rewrite Hre, Er in Hg. destruct (o_compress o); discriminate.
  - exists (o_delim o). eexists. repeat split; [destruct (o_greedy o); reflexivity | discriminate].
Qed.

(** the same with -e RE, for the regexes of the modelled family *)
Theorem tie_cut_str_regex : forall (o : opt) (r : re) (line0 : bytes) (fields0 : list (Z * Z)) (buf0 : list byte),
  o_regex o = Some (RxRe r) -> o_btype o <> BChars ->
  Forall item_nz (items (o_bounds o)) ->
  (forall nd, o_replace o = Some nd ->
     Z.of_nat (length (rline2 o r (rline1 o r line0))) + Z.of_nat (length nd) <= usize_max) ->
  Z.of_nat (length (rfields o r (rline1 o r line0))) <= i32_max ->
  of_rres_cut (cut_str o line0) (gen_cut_str line0 o fields0 buf0 [o_eol o]).
Proof.
  intros o r line0 fields0 buf0 Hre Hb Hnz H2 Hf.
  apply guard_bridge. intros Hg.
  destruct (regex_stages o r (rline1 o r line0) Hre Hg) as (d & ms & Es & Em & Ef & Hd).
  apply (stages_bridge o line0 (rline1 o r line0) (rline2 o r (rline1 o r line0)) d (negb (compresses o)) ms).
  - exact Hg.
  - exact Hnz.
  - intros text. apply maybe_replace_total. right. rewrite Hre. discriminate.
  - unfold cut_trim, rline1. rewrite Hre. destruct (o_trim o); reflexivity.
  - exact Es.
  - exact Em.
  - rewrite Hre. discriminate.
  - intros k x ms' _ Hx Hms. rewrite Hre in Hx. injection Hx as <-. injection Hms as <-.
    apply (proj1 (re_matches_wf (RPlus r) line0)).
  - rewrite Hre. discriminate.
  - intros Ec. apply H2, Hd. destruct (compresses o); [reflexivity | discriminate].
  - unfold cut_fields. rewrite (not_chars o Hb), Ef. exact Hf.
Qed.

(** -c: the characters of a record that is valid UTF-8 (no -t here) *)
Theorem tie_cut_str_chars : forall (o : opt) (line0 : bytes) (ms : list mtch) (fields0 : list (Z * Z)) (buf0 : list byte),
  o_regex o = Some RxChars -> o_btype o = BChars -> o_trim o = None ->
  Forall item_nz (items (o_bounds o)) ->
  char_matches line0 = Some ms ->
  Z.of_nat (length (drop_outer (fields_of_matches ms line0))) <= i32_max ->
  of_rres_cut (cut_str o line0) (gen_cut_str line0 o fields0 buf0 [o_eol o]).
Proof.
  intros o line0 ms fields0 buf0 Hre Hb Ht Hnz Hms Hf.
  assert (Ec : compresses o = false) by (unfold compresses; rewrite Hb; apply andb_false_r).
  apply guard_bridge. intros Hg.
  apply (stages_bridge o line0 line0 line0 (o_delim o) true ms).
  - exact Hg.
  - exact Hnz.
  - intros text. apply maybe_replace_total. left. exact Hb.
  - exact (cut_trim_none o line0 Ht).
  - rewrite (cut_compress_keep o line0 Ec). unfold is_re. rewrite Hre. reflexivity.
  - rewrite (cut_split_regex o _ _ _ Hre). destruct (o_greedy o); exact Hms.
  - rewrite Hre. discriminate.
  - intros k x ms' Hk. rewrite Ht in Hk. discriminate.
  - rewrite Hre. discriminate.
  - discriminate.
  - unfold cut_fields. rewrite Hb. exact Hf.
Qed.

Definition tie_cut_str := tie_cut_str_literal.
Print Assumptions tie_cut_str_literal.
Print Assumptions tie_cut_str_regex.
Print Assumptions tie_cut_str_chars.
