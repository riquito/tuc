(** [print_bof] (src/stream.rs), the step the -M path takes at every delimiter, EOL and chunk end, as
    translated: with [its] the items from index [i] on, it writes what the model's [print_bof] writes and
    returns the index past the items the model consumes.  [i + 2 <= usize_max] is for the two
    `bof_idx += 1`, [a <= b <= length chunk] for `&chunk[prev_chunk_idx..chunk_idx]`, and [matches] must
    answer on the pending bound (no sign mismatch) for `b.matches(curr_field).unwrap()`. *)
From TucModel Require Import Base.Bytes Base.ListX Model.Bounds Model.Stream Tie.RsPrelude Tie.TieBase Tie.RsOpt
  Tie.RsStr Tie.Gen_ub_matches Tie.Bridge_ub_matches Tie.Gen_print_field Tie.Bridge_print_field Tie.Gen_print_bof.
From TucModel Require Export Tie.RsFacts.
Import ListNotations.
Local Open Scope Z_scope.

Definition so_of (g : gsopt) : sopt :=
  mkSO (gs_delim g) (gs_repl g) (gs_join g) (gs_eol g) (gs_fallback g) (items (gs_bounds g)) SCont.

Definition pending (its : list bof) : option ubound :=
  match its with
  | Filler _ :: Bound b :: _ => Some b
  | Bound b :: _ => Some b
  | _ => None
  end.

(** the part after the optional filler: the pending bound *)
Definition bound_code (g : gsopt) (out0 : bytes) (j : nat) (curr : Z) (chunk : bytes) (a b : nat) (trunc complete : bool)
  (s : option bof) : rs (option Z * bytes) :=
  match s with
  | Some (Bound bd) =>
      bind (gen_ub_matches bd curr) (fun t => bind (opt_unwrap t) (fun c : bool =>
        if c then
          bind (str_between chunk (Z.of_nat a) (Z.of_nat b)) (fun piece =>
            bind (gen_print_field piece (match gs_repl g with Some v => v | None => gs_delim g end)
                    (negb trunc && (1 <? curr) && negb (side_eqb (bl bd) (SSome curr)))) (fun '(r, w) =>
              match r with
              | Some _ =>
                  if complete && side_eqb (br bd) (SSome curr)
                  then bind (usize_add (Z.of_nat j) 1) (fun v =>
                         if gs_join g && negb (blast bd)
                         then Ret (Some v, (out0 ++ w) ++ [match gs_repl g with Some v => v | None => gs_delim g end])
                         else Ret (Some v, out0 ++ w))
                  else Ret (Some (Z.of_nat j), out0 ++ w)
              | None => Ret (None, out0 ++ w)
              end))
        else Ret (Some (Z.of_nat j), out0)))
  | _ => Ret (Some (Z.of_nat j), out0)
  end.

Definition bound_model (g : gsopt) (its1 : list bof) (curr : Z) (piece : bytes) (trunc complete : bool) : bytes * list bof :=
  match its1 with
  | Bound bd :: r =>
      match matches bd curr with
      | Some true =>
          let pre := if negb trunc && (1 <? curr) && negb (side_eqb (bl bd) (SSome curr)) then [sdelim (so_of g)] else [] in
          if complete && side_eqb (br bd) (SSome curr)
          then (pre ++ piece ++ (if s_join (so_of g) && negb (blast bd) then [sdelim (so_of g)] else []), r)
          else (pre ++ piece, its1)
      | _ => ([], its1)
      end
  | _ => ([], its1)
  end.

Lemma bound_part (g : gsopt) (out0 : bytes) (j : nat) (curr : Z) (chunk : bytes) (a b : nat) (trunc complete : bool) :
  Z.of_nat j + 1 <= usize_max -> (a <= b)%nat -> (b <= length chunk)%nat ->
  let its1 := skipn j (items (gs_bounds g)) in
  (forall bd, hd_error its1 = Some (Bound bd) -> matches bd curr <> None) ->
  bound_code g out0 j curr chunk a b trunc complete (nth_error (items (gs_bounds g)) j)
  = let '(o2, its') := bound_model g its1 curr (slice chunk a b) trunc complete in
    Ret (Some (Z.of_nat (j + (length its1 - length its'))), out0 ++ o2).
Proof.
  intros Hj Hab Hb its1 Hm. unfold bound_code, bound_model. rewrite nth_skipn. fold its1.
  destruct its1 as [|x r] eqn:E; cbn [hd_error].
  - rewrite Nat.sub_diag, Nat.add_0_r, app_nil_r. reflexivity.
  - destruct x as [bd|f].
    2:{ rewrite Nat.sub_diag, Nat.add_0_r, app_nil_r. reflexivity. }
    rewrite tie_ub_matches. cbn [bind]. specialize (Hm bd eq_refl).
    destruct (matches bd curr) as [[|]|]; [| |contradiction]; cbn [opt_unwrap bind].
    2:{ rewrite Nat.sub_diag, Nat.add_0_r, app_nil_r. reflexivity. }
    rewrite (str_between_ok chunk a b (conj Hab Hb)). cbn [bind]. rewrite tie_print_field. cbn [bind].
    unfold sdelim, so_of. cbn [s_repl s_delim s_join].
    destruct (complete && side_eqb (br bd) (SSome curr))%bool.
    + rewrite (usize_add_nat j Hj). cbn [bind length].
      replace (j + (S (length r) - length r))%nat with (S j) by lia.
      destruct (gs_join g && negb (blast bd))%bool; rewrite <- ?app_assoc; [reflexivity | rewrite app_nil_r; reflexivity].
    + rewrite Nat.sub_diag, Nat.add_0_r. reflexivity.
Qed.

Lemma print_bof_split (g : gsopt) (its : list bof) curr piece trunc complete :
  print_bof (so_of g) its curr piece trunc complete
  = match its with
    | Filler f :: r => let '(o2, its') := bound_model g r curr piece trunc complete in (f ++ o2, its')
    | _ => let '(o2, its') := bound_model g its curr piece trunc complete in (o2, its')
    end.
Proof.
  unfold print_bof, bound_model. destruct its as [|[bd|f] r].
  - reflexivity.
  - destruct (matches bd curr) as [[|]|]; try reflexivity. destruct (complete && side_eqb (br bd) (SSome curr))%bool; reflexivity.
  - destruct r as [|[bd|f'] r']; try (rewrite app_nil_r; reflexivity).
    destruct (matches bd curr) as [[|]|]; try (rewrite app_nil_r; reflexivity).
    destruct (complete && side_eqb (br bd) (SSome curr))%bool; reflexivity.
Qed.

Lemma side_eqb_sym (a b : side) : side_eqb a b = side_eqb b a.
Proof. destruct a as [x|], b as [y|]; cbn [side_eqb]; try reflexivity. apply Z.eqb_sym. Qed.

(** how far the index moves: by the number of items that the model consumes (none, one, two) *)
Lemma index_kept (i n : nat) : (i + (n - n))%nat = i.
Proof. lia. Qed.
Lemma index_past (i n : nat) : (i + (S n - n))%nat = S i.
Proof. lia. Qed.
Lemma index_past2 (i n : nat) : (i + (S (S n) - n))%nat = S (S i).
Proof. lia. Qed.

Lemma ret_index_eq (x y : nat) (u v : bytes) : y = x -> u = v -> Ret (Some (Z.of_nat x), u) = Ret (Some (Z.of_nat y), v).
Proof. intros -> ->. reflexivity. Qed.

(** [pb_crunch] does not follow the shape of the function: it decides the tests one at a time - first those
    the code branches on, then, if the two sides still differ, the others - and [pb_finish] compares the
    index returned and the bytes written. *)
Ltac pb_finish :=
  cbn [app length]; apply ret_index_eq;
  [ first [apply index_kept | apply index_past | apply index_past2] | rewrite ?app_nil_r, <- ?app_assoc; reflexivity ].
Ltac pb_crunch curr :=
  rewrite ?tie_ub_matches; cbn [bind opt_unwrap];
  repeat match goal with
         | |- context [side_eqb (SSome curr) ?x] => rewrite (side_eqb_sym (SSome curr) x)
         end;
  repeat (lazymatch goal with |- (if ?c then _ else _) = _ => decide_first c end; cbn [andb orb negb xorb bind opt_unwrap]);
  repeat first [solve [pb_finish] | case_if; cbn [bind opt_unwrap]].

Theorem tie_print_bof : forall (g : gsopt) (i : nat) (curr : Z) (chunk : bytes) (a b : nat) (trunc complete : bool),
  Z.of_nat i + 2 <= usize_max -> (a <= b)%nat -> (b <= length chunk)%nat ->
  let its := skipn i (items (gs_bounds g)) in
  (forall bd, pending its = Some bd -> matches bd curr <> None) ->
  gen_print_bof g (Z.of_nat i) curr chunk (Z.of_nat a) (Z.of_nat b) trunc complete
  = let '(out, its') := print_bof (so_of g) its curr (slice chunk a b) trunc complete in
    Ret (Some (Z.of_nat (i + (length its - length its'))), out).
Proof.
  intros g i curr chunk a b trunc complete Hi Hab Hb its Hm.
  assert (E0 : nth_error (items (gs_bounds g)) i = hd_error its) by apply nth_skipn.
  assert (E1 : nth_error (items (gs_bounds g)) (S i) = hd_error (tl its)).
  { rewrite nth_skipn, skipn_S_tl. reflexivity. }
  cbv beta delta [gen_print_bof] iota zeta. rewrite ?(usize_add_nat i) by lia. cbn [bind]. rewrite ?Nat2Z.id, ?E0, ?E1.
  unfold print_bof, sdelim, so_of. cbn [s_repl s_delim s_join].
  (* what the look-ups find, and whether the pending bound matches *)
  destruct its as [|[bd|f] its1]; [| |destruct its1 as [|[bd|f'] r]]; cbn [hd_error tl] in *.
  all: rewrite ?tie_ub_matches; try (specialize (Hm bd eq_refl); destruct (matches bd curr) as [[|]|]; [| |contradiction]).
  all: cbn [bind opt_unwrap negb]; rewrite ?(str_between_ok chunk a b) by lia; cbn [bind]; rewrite ?tie_print_field; cbn [bind].
  all: rewrite ?(usize_add_nat i), ?(usize_add_nat (S i)) by lia; pb_crunch curr.
Qed.
