(** [UserBounds::complement], as translated, returns the model's [complement_bound] under the hypotheses
    of [tie_ub_try_into_range]; the `expect`s of [From<Range<usize>>] are not reached. *)
From TucModel Require Import Base.Bytes Model.Bounds Proofs.BoundsFacts Tie.RsPrelude Tie.TieBase
  Tie.Bridge_ub_from_range Tie.Bridge_ub_try_into_range Tie.Bridge_complement_std_range Tie.Gen_ub_complement.
Import ListNotations.
Local Open Scope Z_scope.

Lemma mapM_of_ranges (F : Z * Z -> rs ubound) :
  (forall s e : nat, Z.of_nat s < i32_max -> Z.of_nat e <= i32_max -> F (Z.of_nat s, Z.of_nat e) = Ret (of_range s e)) ->
  forall l : list (nat * nat),
    Forall (fun p => Z.of_nat (fst p) < i32_max /\ Z.of_nat (snd p) <= i32_max) l ->
    mapM F (pairs_Z l) = Ret (map (fun r => of_range (fst r) (snd r)) l).
Proof.
  intros HF l. induction l as [|[a b] l IH]; intros H; [reflexivity|].
  inversion H as [|? ? [Ha Hb] Hl]; subst. cbn [pairs_Z map mapM fst snd] in *.
  rewrite HF by assumption. cbn [bind]. unfold pairs_Z in IH. rewrite IH by assumption. reflexivity.
Qed.

Lemma complement_std_range_small n s e : (s < e <= n)%nat -> Z.of_nat n <= i32_max ->
  Forall (fun p => Z.of_nat (fst p) < i32_max /\ Z.of_nat (snd p) <= i32_max) (complement_std_range n s e).
Proof.
  intros H Hn. unfold complement_std_range.
  destruct s as [|s]; destruct (Nat.eqb_spec e n); repeat constructor; cbn [fst snd]; unfold i32_max in *; lia.
Qed.

Lemma tie_ub_complement : forall (b : ubound) (n : nat),
  Z.of_nat n <= i32_max -> bl b <> SSome 0 ->
  gen_ub_complement b (Z.of_nat n) = Ret (complement_bound b n).
Proof.
  intros b n Hn Hz. cbv beta delta [gen_ub_complement] iota zeta.
  rewrite (tie_ub_try_into_range b n Hn Hz). cbn [bind]. unfold complement_bound.
  destruct (try_into_range b n) as [[s e]|] eqn:E; cbn [range_Z]; [|reflexivity].
  pose proof (try_into_range_bounds b n s e Hz E) as Hse.
  rewrite tie_complement_std_range. cbn [bind]. unfold to_list, iter_list.
  match goal with |- context [mapM ?F _] => rewrite (mapM_of_ranges F) end.
  - reflexivity.
  - intros s' e' Hs' He'. rewrite (tie_ub_from_range s' e' Hs' He'). reflexivity.
  - apply complement_std_range_small; assumption.
Qed.
