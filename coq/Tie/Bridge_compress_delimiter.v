(** [compress_delimiter] (src/cut_str.rs), as translated with the reused output buffer as an argument
    and a result: whatever the buffer held on entry, it returns holding the model's [compress_delimiter],
    provided `line.len() + delimiter.len()` fits a usize (`idx + delimiter.len()`).  `&line[prev_idx..idx]`
    is in range because the occurrences [find_iter] reports do not overlap and lie within the text. *)
From TucModel Require Import Base.Bytes Model.Scan Proofs.C12 Tie.RsPrelude Tie.RsScan Tie.RsFacts
  Tie.Bridge_fill_fields Tie.Gen_compress_delimiter.
Import ListNotations.
Local Open Scope Z_scope.

Fixpoint spaced (ld prev : nat) (ps : list nat) : Prop :=
  match ps with [] => True | p :: ps' => (prev <= p)%nat /\ spaced ld (p + ld) ps' end.

Lemma wf_ms_spaced ld n : forall ps prev, wf_ms prev (map (fun p => (p, p + ld)%nat) ps) n -> spaced ld prev ps.
Proof. induction ps as [|p ps IH]; intros prev H; [exact I|]. destruct H as (H1 & _ & H3). split; [exact H1 | apply IH, H3]. Qed.

Lemma find_iter_aux_spaced d : forall l skip pos, spaced (length d) (pos + skip) (find_iter_aux d skip pos l).
Proof. intros l skip pos. apply (wf_ms_spaced _ (pos + skip + length l)), find_iter_wf; lia. Qed.

(** [cpiece]: what the loop body appends for the occurrence at [idx]; [cbody]: what the walk over the
    occurrences has appended and where the last occurrence ended *)
Definition cpiece (line d : bytes) (prev idx : nat) : bytes :=
  if Nat.eqb idx 0 then d else match slice line prev idx with [] => [] | _ => slice line prev idx ++ d end.

Fixpoint cbody (line d : bytes) (prev : nat) (ps : list nat) : bytes * nat :=
  match ps with
  | [] => ([], prev)
  | p :: ps' => (cpiece line d prev p ++ fst (cbody line d (p + length d) ps'), snd (cbody line d (p + length d) ps'))
  end.

Lemma compress_from_cbody line d : forall ps prev,
  compress_from d line prev ps
  = fst (cbody line d prev ps) ++ (if Nat.ltb (snd (cbody line d prev ps)) (length line) then skipn (snd (cbody line d prev ps)) line else []).
Proof.
  induction ps as [|p ps IH]; intros prev; cbn [compress_from cbody fst snd]; [reflexivity|].
  rewrite IH, <- app_assoc. unfold cpiece. reflexivity.
Qed.

Lemma compress_loop (F : bytes * Z -> Z -> rs (ctrl (bytes * Z) unit)) (line d : bytes) :
  (forall out prev idx, (prev <= idx)%nat -> (idx <= length line)%nat -> Z.of_nat idx + Z.of_nat (length d) <= usize_max ->
     F (out, Z.of_nat prev) (Z.of_nat idx) = Ret (Next (out ++ cpiece line d prev idx, Z.of_nat (idx + length d)))) ->
  forall ps out prev,
    spaced (length d) prev ps -> Forall (fun p => (p <= length line)%nat) ps ->
    Z.of_nat (length line) + Z.of_nat (length d) <= usize_max ->
    loopM F (map Z.of_nat ps) (out, Z.of_nat prev)
    = Ret (Next (out ++ fst (cbody line d prev ps), Z.of_nat (snd (cbody line d prev ps)))).
Proof.
  intros HF ps. induction ps as [|p ps IH]; intros out prev Hsp Hall Hlen; cbn [map loopM cbody fst snd].
  - rewrite app_nil_r. reflexivity.
  - cbn [spaced] in Hsp. destruct Hsp as [Hle Hsp]. inversion Hall as [|? ? Hp Hps]; subst.
    rewrite HF by (try assumption; lia). cbn [bind]. rewrite (IH _ _ Hsp Hps Hlen). rewrite <- app_assoc. reflexivity.
Qed.

Lemma tie_compress_delimiter : forall (line d output0 : bytes),
  Z.of_nat (length line) + Z.of_nat (length d) <= usize_max ->
  gen_compress_delimiter line d output0 = Ret (tt, compress_delimiter d line).
Proof.
  intros line d output0 Hlen. cbv beta delta [gen_compress_delimiter] iota zeta.
  unfold to_list, iter_list, find_iter_z, compress_delimiter.
  change 0 with (Z.of_nat 0).
  match goal with |- context [loopM ?F _ _] => rewrite (compress_loop F line d) end.
  - cbn [bind]. rewrite compress_from_cbody. cbn [app].
    set (last := snd (cbody line d 0 (find_iter d line))). rewrite Z_of_nat_ltb.
    destruct (Nat.ltb_spec last (length line)); [|rewrite app_nil_r; reflexivity].
    rewrite str_from_ok by lia. reflexivity.
  - intros out prev idx H1 H2 H3. cbv beta iota. change (Z.of_nat 0) with 0.
    rewrite str_between_ok, usize_add_of_nat by lia. cbn [bind]. unfold cpiece.
    (* not by the shape of the branches: decide idx = 0 and whether the part is empty, then compare the
       appended bytes up to associativity *)
    change 0 with (Z.of_nat 0). rewrite Z_of_nat_eqb.
    destruct (Nat.eqb_spec idx 0) as [E0|E0].
    + assert (prev = 0)%nat by lia. subst prev idx. change (slice line 0 0) with (@nil byte).
      cbn [orb andb negb bind app]; rewrite ?app_nil_r, <- ?app_assoc; reflexivity.
    + destruct (slice line prev idx) as [|y pp] eqn:Esl; cbn [orb andb negb bind app]; rewrite ?app_nil_r, <- ?app_assoc; reflexivity.
  - unfold find_iter. apply (find_iter_aux_spaced d line 0 0).
  - apply find_iter_le.
  - exact Hlen.
Qed.
