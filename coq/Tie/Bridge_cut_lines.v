(** [cut_lines] (src/cut_lines.rs), the whole-input algorithm of -l, as translated: invalid UTF-8 fails;
    otherwise, if the translated [cut_str], with fresh scratch buffers, agrees with the model's on the input
    less one trailing EOL ([of_rres_cut]), the result agrees with the model's [cut_lines_buffered]. *)
From TucModel Require Import Base.Bytes Model.Utf8 Model.Opt Model.CutStr Model.CutLines
  Tie.RsPrelude Tie.RsLines
  Tie.Gen_cut_str Tie.Bridge_cut_str Tie.Gen_cut_lines.
Import ListNotations.

Definition of_outcome_cut (m : option outcome) (x : rs (option unit * bytes)) : Prop :=
  match m with
  | Some (Done out) => x = Ret (Some tt, out)
  | Some (Fail _) => exists partial, x = Ret (None, partial)
  | Some Bytes.Panic => x = RsPrelude.Panic
  | _ => True
  end.

Lemma strip_suffix_is_strip_one (eol : byte) (l : bytes) :
  (match strip_suffix_byte eol l with Some v => v | None => l end) = strip_one_suffix eol l.
Proof. unfold strip_suffix_byte, strip_one_suffix. destruct (rev l) as [|x r]; [reflexivity|]. destruct (N.eqb x eol); reflexivity. Qed.

Theorem tie_cut_lines : forall (stdin : bytes) (o : opt),
  of_rres_cut (cut_str o (strip_one_suffix (o_eol o) stdin)) (gen_cut_str (strip_one_suffix (o_eol o) stdin) o [] [] [o_eol o]) ->
  of_outcome_cut (cut_lines_buffered o stdin) (gen_cut_lines stdin o).
Proof.
  intros stdin o H. cbv beta delta [gen_cut_lines] iota zeta. unfold cut_lines_buffered, from_utf8. cbn [app].
  destruct (utf8_valid stdin); cbn [negb]; [|eexists; reflexivity].
  rewrite strip_suffix_is_strip_one.
  destruct (cut_str o (strip_one_suffix (o_eol o) stdin)) as [[out| | |]|]; cbn [of_rres_cut of_outcome_cut] in *.
  - rewrite H. reflexivity.
  - destruct H as [p H]. rewrite H. eexists. reflexivity.
  - rewrite H. reflexivity.
  - exact I.
  - exact I.
Qed.
