(** [read_and_cut_bytes] (src/cut_bytes.rs), as translated: what is left of the input is read and handed to
    the translated [cut_bytes], whose result and output are passed on unchanged. *)
From TucModel Require Import Base.Bytes Model.Opt
  Tie.RsFacts Tie.Gen_cut_bytes Tie.Gen_read_and_cut_bytes.
Import ListNotations.

Theorem tie_read_and_cut_bytes : forall (stdin : bytes) (o : opt),
  gen_read_and_cut_bytes stdin o = gen_cut_bytes stdin o.
Proof.
  intros stdin o. cbv beta delta [gen_read_and_cut_bytes] iota zeta.
  destruct stdin as [|c l]; cbv iota beta; first [apply pass_on | apply pass_on'].
Qed.
